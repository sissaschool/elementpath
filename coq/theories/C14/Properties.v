From Coq Require Import ZArith List.
From EP Require Import C14.Model C14.Proofs.
Import ListNotations.

(* evaluating the path of a node selects exactly that one node: every tree, every node *)
Theorem C14_path_selects_self : forall t ip, valid t ip ->
  exists p, path_of t ip = Some p /\ eval t p = [ip].
Proof. intros t ip H. destruct (path_total ip t H) as (p & Hp). exists p. split; [exact Hp|exact (path_selects_self ip t p Hp)]. Qed.
Print Assumptions C14_path_selects_self.

(* distinct nodes have distinct paths *)
Theorem C14_path_injective : forall t ip1 ip2 p, path_of t ip1 = Some p -> path_of t ip2 = Some p -> ip1 = ip2.
Proof.
  intros t ip1 ip2 p H1 H2. apply path_selects_self in H1. apply path_selects_self in H2. congruence.
Qed.
Print Assumptions C14_path_injective.

(* the counting rule of the code BEFORE the fix (PIs counted by class, elements against any kind with that name) is
   not a path: witness <a><?x?><?y?></a>, second PI *)
Definition same_test_old (a b : nkind) : bool :=
  match a, b with
  | KElem n, KElem m => (n =? m)%Z | KElem n, KPI m => (n =? m)%Z
  | KText, KText => true | KComment, KComment => true | KPI _, KPI _ => true | _, _ => false end.
Theorem C14_old_counting_refuted :
  let t := RNode (KElem 1) [RNode (KPI 7) []; RNode (KPI 8) []] in
  eval t [(KPI 8, 2)] = [] /\ path_of t [1%nat] = Some [(KPI 8, 1%nat)].
Proof. vm_compute. split; reflexivity. Qed.
Print Assumptions C14_old_counting_refuted.

Example C14_nonvacuous :
  let t := RNode (KElem 1) [RNode (KPI 7) []; RNode (KElem 2) [RNode KText []]; RNode KText []; RNode (KElem 2) [RNode KComment []; RNode KText []]; RNode (KPI 7) []] in
  valid t [3; 1]%nat /\ path_of t [3; 1]%nat = Some [(KElem 2, 2%nat); (KText, 1%nat)] /\ path_of t [4]%nat = Some [(KPI 7, 2%nat)].
Proof. vm_compute. repeat split. Qed.
