From Coq Require Import ZArith List Lia.
From EP Require Import C14.Model.
Import ListNotations.

Lemma same_test_refl : forall k, same_test k k = true.
Proof. destruct k; auto; apply Z.eqb_refl. Qed.

(* the position of the child at index i is one more than the number of matching siblings before it ... *)
Lemma child_position_before : forall l i c, nth_error l i = Some c ->
  child_position l i (kind_of c) = S (count_matching (kind_of c) (firstn i l)).
Proof.
  unfold child_position. induction l as [|x r IH]; intros [|i] c H; try discriminate.
  - injection H as ->. cbn. rewrite same_test_refl. reflexivity.
  - rewrite !firstn_cons. cbn [count_matching]. rewrite (IH i c H). lia.
Qed.
(* ... and that is the match kth_match stops at *)
Lemma kth_match_found : forall l k i c off, nth_error l i = Some c -> same_test k (kind_of c) = true ->
  kth_match k l (S (count_matching k (firstn i l))) off = Some (off + i, c).
Proof.
  induction l as [|x r IH]; intros k [|i] c off Hn Hm; try discriminate.
  - injection Hn as ->. cbn. rewrite Hm, Nat.add_0_r. reflexivity.
  - cbn [firstn count_matching kth_match]. rewrite Nat.add_succ_r.
    destruct (same_test k (kind_of x)); exact (IH k i c (S off) Hn Hm).
Qed.

Lemma path_selects_self : forall ip t p, path_of t ip = Some p -> eval t p = [ip].
Proof.
  induction ip as [|i rest IH]; intros t p H; cbn [path_of] in H.
  - injection H as <-. reflexivity.
  - destruct (nth_error (children_of t) i) as [c|] eqn:N; [|discriminate].
    destruct (path_of c rest) as [q|] eqn:Q; [|discriminate]. injection H as <-.
    cbn [eval]. rewrite (child_position_before _ i c N), (kth_match_found _ _ i c 0 N (same_test_refl _)).
    rewrite (IH c q Q). reflexivity.
Qed.

Fixpoint valid (t : rtree) (ip : list nat) : Prop :=
  match ip with [] => True | i :: rest => match nth_error (children_of t) i with Some c => valid c rest | None => False end end.
Lemma path_total : forall ip t, valid t ip -> exists p, path_of t ip = Some p.
Proof.
  induction ip as [|i rest IH]; intros t H; cbn in *; [eauto|].
  destruct (nth_error (children_of t) i) as [c|]; [|tauto]. destruct (IH c H) as (q & ->). eauto.
Qed.
