From Coq Require Import ZArith List Bool Lia.
From EP Require Import C09.Model C09.Proofs C09.Collation.
Import ListNotations.
Open Scope Z_scope.

Lemma ascii_fold_idem : forall c, ascii_fold (ascii_fold c) = ascii_fold c.
Proof.
  intros c. unfold ascii_fold. destruct ((65 <=? c) && (c <=? 90)) eqn:E; [|rewrite E; reflexivity].
  replace ((65 <=? c + 32) && (c + 32 <=? 90)) with false by lia. reflexivity.
Qed.

(* the collation is the code point order of the folded strings: reflexive, antisymmetric, transitive, and zero exactly on strings
   with the same folding; only the 26 ASCII letter pairs are identified (C09_html_ascii_fold) *)
Theorem C09_html_ascii_collation : forall a b c,
  compare_ci a a = 0 /\ compare_ci b a = - compare_ci a b /\ (compare_ci a b = 0 <-> fold_str a = fold_str b) /\
  (compare_ci a b = -1 -> compare_ci b c = -1 -> compare_ci a c = -1) /\
  (same_ci a b = true <-> compare_ci a b = 0).
Proof.
  intros a b c. unfold compare_ci, same_ci. repeat split.
  - apply compare_cp_refl.
  - apply compare_cp_antisym.
  - apply compare_cp_eq.
  - apply compare_cp_eq.
  - apply compare_cp_trans.
  - intros H. apply compare_cp_eq. apply codepoint_equal_iff. exact H.
  - intros H. apply codepoint_equal_iff. apply compare_cp_eq. exact H.
Qed.
Print Assumptions C09_html_ascii_collation.

Theorem C09_html_ascii_fold : forall x y,
  ascii_fold x = ascii_fold y <-> (x = y \/ (65 <= x <= 90 /\ y = x + 32) \/ (65 <= y <= 90 /\ x = y + 32)).
Proof. intros x y. unfold ascii_fold. destruct ((65 <=? x) && (x <=? 90)) eqn:E1; destruct ((65 <=? y) && (y <=? 90)) eqn:E2; lia. Qed.
Print Assumptions C09_html_ascii_fold.

(* folding beyond ASCII is refuted as a model of this collation: the letters 201 and 233 stay different *)
Theorem C09_unicode_folding_refuted : compare_ci [201] [233] <> 0 /\ compare_cp (map unicode_fold_example [201]) (map unicode_fold_example [233]) = 0.
Proof. split; [vm_compute; discriminate|reflexivity]. Qed.
Print Assumptions C09_unicode_folding_refuted.

Example C09_collation_nonvacuous :
  compare_ci [97; 66] [65; 98] = 0 /\ compare_ci [97] [66] = -1 /\ contains_ci [97; 75; 98] [107] = true /\ contains_ci [97; 8490; 98] [107] = false.
Proof. repeat split. Qed.
