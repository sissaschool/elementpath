(* C09 lemmas on URI escaping: the `safe` strings against the classes of F&O (tables over ASCII), percent-decoding, the four
   forms of UTF-8, and escaping with a general class of kept characters *)
From Coq Require Import ZArith List Bool Lia.
From EP Require Import Gen.C09UriSafe C09.UriEscape.
From EP Require C10.Proofs.
Import ListNotations.
Open Scope Z_scope.

Definition ascii_range : list Z := map Z.of_nat (seq 0 128).
Lemma ascii_all : forall (P : Z -> bool), forallb P ascii_range = true -> forall c, 0 <= c < 128 -> P c = true.
Proof.
  intros P H c Hc. rewrite forallb_forall in H. apply H. unfold ascii_range.
  rewrite <- (Z2Nat.id c) by lia. apply in_map. apply in_seq. lia.
Qed.
Lemma mem_out_of_range : forall l c, forallb (fun x => (0 <=? x) && (x <? 128)) l = true -> (c < 0 \/ 128 <= c) -> mem c l = false.
Proof.
  induction l as [|x l IH]; intros c H Hc; [reflexivity|]. apply andb_prop in H as [Hx Hl].
  unfold mem in *. cbn [existsb]. rewrite (IH c Hl Hc), orb_false_r. lia.
Qed.

(* a class that is empty outside ASCII is decided by quote iff the two agree on the 128 ASCII characters *)
Lemma keeps_spec : forall safe kept,
  forallb (fun x => (0 <=? x) && (x <? 128)) safe = true ->
  forallb (fun c => Bool.eqb (quote_keeps safe c) (kept c)) ascii_range = true ->
  (forall c, (c < 0 \/ 128 <= c) -> kept c = false) ->
  forall c, quote_keeps safe c = kept c.
Proof.
  intros safe kept Hs Ha Ho c. assert (D : 0 <= c < 128 \/ (c < 0 \/ 128 <= c)) by lia. destruct D as [A|O].
  - apply eqb_prop, (ascii_all _ Ha), A.
  - unfold quote_keeps. rewrite (mem_out_of_range quote_always_safe), (mem_out_of_range safe), Ho by (assumption || reflexivity).
    reflexivity.
Qed.
Lemma enc_out : forall c, (c < 0 \/ 128 <= c) -> enc_kept c = false.
Proof. intros c H. unfold enc_kept, alnum, mem. cbn [existsb]. lia. Qed.
Lemma iri_out : forall c, (c < 0 \/ 128 <= c) -> iri_kept c = false.
Proof. intros c H. unfold iri_kept. lia. Qed.
Lemma html_out : forall c, (c < 0 \/ 128 <= c) -> html_kept c = false.
Proof. intros c H. unfold html_kept. lia. Qed.
Lemma enc_keeps : forall c, quote_keeps encode_for_uri_safe c = enc_kept c.
Proof. apply keeps_spec; [vm_compute; reflexivity|vm_compute; reflexivity|exact enc_out]. Qed.
Lemma iri_keeps : forall c, quote_keeps iri_to_uri_safe c = iri_kept c.
Proof. apply keeps_spec; [vm_compute; reflexivity|vm_compute; reflexivity|exact iri_out]. Qed.
Lemma html_keeps : forall c, quote_keeps escape_html_uri_safe c = html_kept c.
Proof. apply keeps_spec; [vm_compute; reflexivity|vm_compute; reflexivity|exact html_out]. Qed.

Lemma quote_spec : forall safe kept, (forall c, quote_keeps safe c = kept c) -> forall s, quote safe s = escape_with kept s.
Proof. intros safe kept H s. apply flat_map_ext. intros c. rewrite H. reflexivity. Qed.

Definition byte (b : Z) : Prop := 0 <= b < 256.
Definition hexdigit (x : Z) : Prop := 48 <= x <= 57 \/ 65 <= x <= 70.
Lemma digit : forall b c, 0 < b -> 0 <= c mod b < b /\ c = b * (c / b) + c mod b.
Proof. intros b c Hb. pose proof (Z.mod_pos_bound c b). pose proof (Z.div_mod c b). lia. Qed.
Lemma hexd_digit : forall n, 0 <= n < 16 -> hexdigit (hexd n).
Proof. intros n H. unfold hexd, hexdigit. destruct (n <? 10) eqn:E; lia. Qed.
(* hexd and unhex of C09/UriEscape.v are hexd and hexv of C10/Model.v written out again, and convertible with them *)
Lemma unhex_hexd : forall n, 0 <= n < 16 -> unhex (hexd n) = Some n.
Proof. exact C10.Proofs.hexv_hexd. Qed.
Lemma byte_nibbles : forall b, byte b -> 0 <= b / 16 < 16 /\ 0 <= b mod 16 < 16 /\ 16 * (b / 16) + b mod 16 = b.
Proof. unfold byte. intros b H. destruct (digit 16 b); lia. Qed.
Lemma unpct_pct : forall b r, byte b -> unpct (pct b ++ r) = option_map (cons b) (unpct r).
Proof.
  intros b r H. apply byte_nibbles in H as (Hh & Hl & E). unfold pct. cbn [app unpct]. change (37 =? 37) with true. cbv iota.
  rewrite !unhex_hexd, E by assumption. destruct (unpct r); reflexivity.
Qed.
Lemma unpct_bytes : forall bs r, Forall byte bs -> unpct (flat_map pct bs ++ r) = option_map (app bs) (unpct r).
Proof.
  induction 1 as [|b bs Hb _ IH]; cbn [flat_map app]; [destruct (unpct r); reflexivity|].
  rewrite <- app_assoc, unpct_pct, IH by exact Hb. destruct (unpct r); reflexivity.
Qed.

(* the four forms of UTF-8 (RFC 3629), over the digits of the code point in base 64 *)
Definition d64 (x : Z) : Prop := 0 <= x < 64.
Inductive utf8_form (c : Z) : list Z -> Prop :=
| form1 : 0 <= c < 128 -> utf8_form c [c]
| form2 h x : 0 <= h < 32 -> d64 x -> c = 64 * h + x -> utf8_form c [192 + h; 128 + x]
| form3 h x y : 0 <= h < 16 -> d64 x -> d64 y -> c = 64 * (64 * h + x) + y -> utf8_form c [224 + h; 128 + x; 128 + y]
| form4 h x y z : 0 <= h < 8 -> d64 x -> d64 y -> d64 z -> c = 64 * (64 * (64 * h + x) + y) + z ->
    utf8_form c [240 + h; 128 + x; 128 + y; 128 + z].

Lemma utf8_has_form : forall c, code_point c -> utf8_form c (utf8 c).
Proof.
  (* c / 4096 = c / 64 / 64: digit, applied three times, gives the digits in base 64, which lia takes as atoms *)
  intros c H. unfold code_point in H. unfold utf8.
  change 4096 with (64 * 64). change 262144 with (64 * 64 * 64). rewrite <- !Z.div_div by lia.
  destruct (digit 64 c) as (D0 & E0); [lia|]. destruct (digit 64 (c / 64)) as (D1 & E1); [lia|].
  destruct (digit 64 (c / 64 / 64)) as (D2 & E2); [lia|].
  destruct (c <? 128) eqn:C1; [|destruct (c <? 2048) eqn:C2; [|destruct (c <? 65536) eqn:C3]];
    constructor; unfold d64; lia.
Qed.
Lemma utf8_bytes : forall c, code_point c -> Forall byte (utf8 c).
Proof. intros c H. destruct (utf8_has_form c H); unfold d64, byte in *; repeat constructor; lia. Qed.

Lemma cont_tail : forall x, d64 x -> cont (128 + x) = Some x.
Proof. unfold cont, d64. intros x H. replace (_ && _) with true by lia. f_equal. lia. Qed.
Lemma utf8_decode_char : forall c r, code_point c -> utf8_decode (utf8 c ++ r) = option_map (cons c) (utf8_decode r).
Proof.
  (* goals 1 to 4 are the one- to four-byte forms; the decoder tries the lead byte against < 128, [192, 224), [224, 240),
     [240, 248) in this order, so form k fails the first k - 1 tests.  t: cbn would also unfold the recursive calls on the
     known tail *)
  intros c r H. destruct (utf8_has_form c H) as [H1|h x Hh Hx E|h x y Hh Hx Hy E|h x y z Hh Hx Hy Hz E];
    cbn [app]; [|set (t := (128 + x) :: _)..]; cbn [utf8_decode].
  2-4: replace (_ <? 128) with false by lia.
  2: replace ((192 <=? _) && _) with true by lia.
  3-4: replace ((192 <=? _) && _) with false by lia.
  3: replace ((224 <=? _) && _) with true by lia.
  4: replace ((224 <=? _) && _) with false by lia.
  4: replace ((240 <=? _) && _) with true by lia.
  2-4: subst t; cbv iota; rewrite !cont_tail by assumption; destruct (utf8_decode r); cbn [option_map]; repeat f_equal; lia.
  replace (c <? 128) with true by lia. reflexivity.
Qed.
Lemma utf8_decode_all : forall s, Forall code_point s -> utf8_decode (flat_map utf8 s) = Some s.
Proof.
  induction 1 as [|c s Hc _ IH]; [reflexivity|].
  cbn [flat_map]. rewrite utf8_decode_char, IH by exact Hc. reflexivity.
Qed.

Lemma unpct_keep : forall c r, c <> 37 -> unpct (c :: r) = option_map (cons c) (unpct r).
Proof. intros c r N. cbn [unpct]. replace (c =? 37) with false by lia. reflexivity. Qed.
Lemma unpct_escape : forall kept, (forall c, kept c = true -> 0 <= c < 128 /\ c <> 37) ->
  forall s, Forall code_point s -> unpct (escape_with kept s) = Some (flat_map utf8 s).
Proof.
  intros kept K. induction 1 as [|c s Hc _ IH]; [reflexivity|].
  unfold escape_with in *. cbn [flat_map]. destruct (kept c) eqn:E.
  - apply K in E as (A & N). cbn [app]. rewrite unpct_keep, IH by exact N.
    unfold utf8. replace (c <? 128) with true by lia. reflexivity.
  - unfold pct_char at 1. rewrite unpct_bytes, IH by (apply utf8_bytes, Hc). reflexivity.
Qed.
Lemma enc_kept_ascii : forall c, enc_kept c = true -> 0 <= c < 128 /\ c <> 37.
Proof. intros c. unfold enc_kept, alnum, mem. cbn [existsb]. lia. Qed.

Lemma pct_char_chars : forall c, code_point c -> Forall (fun x => x = 37 \/ hexdigit x) (pct_char c).
Proof.
  intros c H. apply Forall_flat_map. eapply Forall_impl; [|apply utf8_bytes, H]. intros b Hb.
  apply byte_nibbles in Hb as (Hh & Hl & _). repeat (constructor; [auto using hexd_digit|]). constructor.
Qed.
Lemma escape_kept_id : forall kept t, Forall (fun x => kept x = true) t -> escape_with kept t = t.
Proof.
  intros kept t H. unfold escape_with. induction H as [|x t Hx Ht IH]; [reflexivity|]. cbn [flat_map]. rewrite Hx, IH. reflexivity.
Qed.
Lemma escape_idempotent : forall kept, (forall x, x = 37 \/ hexdigit x -> kept x = true) ->
  forall s, Forall code_point s -> escape_with kept (escape_with kept s) = escape_with kept s.
Proof.
  intros kept K s H. apply escape_kept_id, Forall_flat_map. eapply Forall_impl; [|exact H]. intros c Hc.
  destruct (kept c) eqn:E; [repeat constructor; exact E|]. eapply Forall_impl; [exact K|apply pct_char_chars, Hc].
Qed.
