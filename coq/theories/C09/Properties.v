From Coq Require Import ZArith List Bool Lia ZifyBool.
From EP Require Import C06.Model C09.Model C09.Proofs Gen.C09Helpers.
From EP Require Gen.C09Shape C06.Proofs.
Import ListNotations.
Open Scope Z_scope.

(* fn:substring = the characters at positions p with round(start) <= p < round(start)+round(length),
   rounding half up, IEEE rules for INF / NaN; all strings, all rational / special arguments *)
Theorem C09_substring : forall s start len, wf_darg start ->
  (match len with Some l => wf_darg l | None => True end) ->
  substring s start len = substring_spec s start len.
Proof.
  (* both sides select a window of positions: empty, everything, a tail or a slice *)
  intros s start len Hs Hl. unfold substring, substring_spec. symmetry.
  destruct start as [| | |m d]; cbn [ext_of wf_darg] in *.
  - destruct len; apply filter_pos_false; reflexivity.
  - destruct len; apply filter_pos_false; reflexivity.
  - destruct len as [l|]; [apply filter_pos_false; destruct l|apply filter_pos_true]; reflexivity.
  - rewrite (C06.Proofs.round_md_spec m d Hs).
    destruct len as [[| | |lm ld]|]; cbn [ext_of ext_add ext_le ext_lt wf_darg] in *.
    + apply filter_pos_false. intros. apply andb_false_r.
    + rewrite py_from_eq. apply filter_pos_from. lia.
    + apply filter_pos_false. intros. apply andb_false_r.
    + destruct (lm <=? 0) eqn:E.
      * apply filter_pos_false. pose proof (round_spec_nonpos lm ld Hl). lia.
      * rewrite (C06.Proofs.round_md_spec lm ld Hl), py_slice_eq. apply filter_pos_window. lia.
    + rewrite py_from_eq. apply filter_pos_from. lia.
Qed.
Print Assumptions C09_substring.

(* concat(substring-before(s,t), t, substring-after(s,t)) = s whenever contains(s,t); first occurrence *)
Theorem C09_before_after : forall s t, contains s t = true ->
  substring_before s t ++ t ++ substring_after s t = s.
Proof.
  intros s t. unfold contains, substring_before, substring_after.
  pose proof (find_spec s t) as F. destruct (find s t) as [i|]; [intros _|discriminate].
  symmetry. apply occurs_split, F.
Qed.
Print Assumptions C09_before_after.
Theorem C09_before_is_first_occurrence : forall s t a b, s = a ++ t ++ b ->
  (length (substring_before s t) <= length a)%nat.
Proof.
  intros s t a b ->. unfold substring_before. pose proof (find_spec (a ++ t ++ b) t) as F.
  destruct (find _ t) as [i|]; [|cbn; lia]. destruct F as (_ & F).
  rewrite firstn_length. destruct (Nat.le_gt_cases i (length a)) as [L|G]; [lia|].
  apply F in G. rewrite occurs_app in G. discriminate.
Qed.
Print Assumptions C09_before_is_first_occurrence.
Theorem C09_contains : forall s t, contains s t = true <-> exists a b, s = a ++ t ++ b.
Proof.
  intros s t. unfold contains. pose proof (find_spec s t) as F. destruct (find s t) as [i|].
  - split; [intros _|reflexivity]. apply proj1, occurs_split in F. eauto.
  - split; [discriminate|]. intros (a & b & ->). specialize (F (length a)). rewrite occurs_app in F. discriminate.
Qed.
Print Assumptions C09_contains.
Theorem C09_starts_ends_with : forall s t,
  (starts_with s t = true <-> exists r, s = t ++ r) /\ (ends_with s t = true <-> exists a, s = a ++ t).
Proof. intros s t. split; [exact (prefixb_spec t s)|exact (ends_with_spec s t)]. Qed.
Print Assumptions C09_starts_ends_with.

(* fn:translate: the first occurrence in the map string decides; unmatched tail of the map deletes *)
Theorem C09_translate : forall s map trans, translate s map trans = translate_spec s map trans.
Proof.
  intros s map trans. apply flat_map_ext. intros c.
  rewrite build_lookup. destruct (index_of c map) as [k|]; reflexivity.
Qed.
Print Assumptions C09_translate.

(* normalize-space for any whitespace class containing U+0020: tokens are the maximal non-whitespace runs,
   joined by single spaces, nothing at the ends; idempotent *)
Theorem C09_normalize_space : forall ws, ws 32 = true -> forall s,
  (Forall (fun t => t <> [] /\ (forall c, In c t -> ws c = false)) (tokens ws s []) /\
   concat (tokens ws s []) = filter (fun c => negb (ws c)) s) /\
  tokens ws (normalize_space ws s) [] = tokens ws s [] /\
  normalize_space ws (normalize_space ws s) = normalize_space ws s.
Proof.
  intros ws W s. pose proof (tokens_spec ws s [] (fun c (H : In c []) => match H with end)) as T.
  split; [exact T|]. unfold normalize_space. rewrite (tokens_join ws W _ (proj1 T)). split; reflexivity.
Qed.
Print Assumptions C09_normalize_space.
(* the class the code splits on is the XML whitespace of the specification (S ::= (#x20 | #x9 | #xD | #xA)+) *)
Theorem C09_normalize_space_xml_whitespace : forall s,
  normalize_space code_ws s = normalize_space xml_space s /\ (forall c, code_ws c = true <-> c = 32 \/ c = 9 \/ c = 10 \/ c = 13).
Proof.
  intro s. split; [reflexivity|]. intro c. unfold code_ws. rewrite !orb_true_iff, !Z.eqb_eq. tauto.
Qed.
Print Assumptions C09_normalize_space_xml_whitespace.
(* splitting with str.split() (every Unicode space character: NBSP, U+2003, VT, FF, FS..US, NEL, ...), as the code did
   before the repair, is a different function *)
Theorem C09_normalize_space_unicode_split_refuted :
  exists s, normalize_space py_isspace s <> normalize_space xml_space s.
Proof. exists [97; 160; 98]. vm_compute. discriminate. Qed.
Print Assumptions C09_normalize_space_unicode_split_refuted.

(* compare(): total order on code-point sequences; codepoint-equal is equality *)
Theorem C09_compare_order : forall a b c,
  compare_cp a a = 0 /\ compare_cp b a = - compare_cp a b /\ (compare_cp a b = 0 <-> a = b) /\
  (compare_cp a b = -1 \/ compare_cp a b = 0 \/ compare_cp a b = 1) /\
  (compare_cp a b = -1 -> compare_cp b c = -1 -> compare_cp a c = -1) /\
  (codepoint_equal a b = true <-> a = b).
Proof.
  intros a b c.
  exact (conj (compare_cp_refl a) (conj (compare_cp_antisym a b) (conj (compare_cp_eq a b) (conj (compare_cp_range a b)
        (conj (compare_cp_trans a b c) (codepoint_equal_iff a b)))))).
Qed.
Print Assumptions C09_compare_order.

(* regenerated helpers.is_xml_codepoint = the Char production of XML 1.0 *)
Theorem C09_is_xml_codepoint : forall cp, is_xml_codepoint cp = true <->
  (cp = 9 \/ cp = 10 \/ cp = 13 \/ 32 <= cp <= 55295 \/ 57344 <= cp <= 65533 \/ 65536 <= cp <= 1114111).
Proof. intros cp. unfold is_xml_codepoint. lia. Qed.
Print Assumptions C09_is_xml_codepoint.

Example C09_nonvacuous :
  substring [49;50;51;52;53] (DFin 5 2) None = [51;52;53] /\
  substring [49;50;51;52;53] (DFin 3 2) (Some (DFin 26 10)) = [50;51;52] /\
  substring [49;50;51;52;53] DNInf None = [49;50;51;52;53] /\
  translate [97;98;99;97;98;99] [97;97] [120;121] = [120;98;99;120;98;99] /\
  substring_before [116;97;116;116;111;111] [116;116] = [116;97] /\
  contains [1;2;3] [2;3] = true /\ wf_darg (DFin 5 2).
Proof. vm_compute. repeat split. Qed.

(* the statements of /repo that the hand model mirrors are present in the source as read on this run (T-data,
   harness/shape.py -> Gen/C09Shape.v) *)
Theorem C09_source_shape : Gen.C09Shape.shape_ok = true.
Proof. reflexivity. Qed.
Print Assumptions C09_source_shape.
