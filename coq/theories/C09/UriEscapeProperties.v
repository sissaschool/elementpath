(* C09 property theorems on the URI escaping functions: the code (urllib.parse.quote with the `safe` strings read from the
   source on this run) computes the functions defined in F&O 3.1 sections 6.1 - 6.3, for every string of code points. *)
From Coq Require Import ZArith List Lia.
From EP Require Import C09.UriEscape C09.UriEscapeProofs.
Import ListNotations.
Open Scope Z_scope.

Theorem C09_encode_for_uri : forall s, encode_for_uri_code s = encode_for_uri s.
Proof. apply quote_spec. exact enc_keeps. Qed.
Print Assumptions C09_encode_for_uri.
Theorem C09_iri_to_uri : forall s, iri_to_uri_code s = iri_to_uri s.
Proof. apply quote_spec. exact iri_keeps. Qed.
Print Assumptions C09_iri_to_uri.
Theorem C09_escape_html_uri : forall s, escape_html_uri_code s = escape_html_uri s.
Proof. apply quote_spec. exact html_keeps. Qed.
Print Assumptions C09_escape_html_uri.

(* the escaped sets are nested: escape-html-uri escapes the least, encode-for-uri the most *)
Theorem C09_uri_escaping_nested : forall c,
  (enc_kept c = true -> iri_kept c = true) /\ (iri_kept c = true -> html_kept c = true).
Proof. intros c. unfold enc_kept, iri_kept, html_kept, alnum, mem. cbn [existsb]. lia. Qed.
Print Assumptions C09_uri_escaping_nested.

(* encode-for-uri loses nothing: percent-decoding and UTF-8 decoding give the string back, for all code points
   (one to four bytes) *)
Theorem C09_encode_for_uri_decodes : forall s, Forall code_point s -> uri_decode (encode_for_uri s) = Some s.
Proof.
  intros s H. unfold uri_decode, encode_for_uri. rewrite (unpct_escape _ enc_kept_ascii) by exact H.
  apply utf8_decode_all, H.
Qed.
Print Assumptions C09_encode_for_uri_decodes.

(* iri-to-uri and escape-html-uri are idempotent (F&O 6.2, 6.3) *)
Theorem C09_iri_to_uri_idempotent : forall s, Forall code_point s -> iri_to_uri (iri_to_uri s) = iri_to_uri s.
Proof. apply escape_idempotent. intros x. unfold hexdigit, iri_kept, mem. cbn [existsb]. lia. Qed.
Print Assumptions C09_iri_to_uri_idempotent.
Theorem C09_escape_html_uri_idempotent : forall s, Forall code_point s -> escape_html_uri (escape_html_uri s) = escape_html_uri s.
Proof. apply escape_idempotent. intros x. unfold hexdigit, html_kept. lia. Qed.
Print Assumptions C09_escape_html_uri_idempotent.

(* encode-for-uri("100% organic/é😀") = "100%25%20organic%2F%C3%A9%F0%9F%98%80" *)
Example C09_uri_nonvacuous :
  encode_for_uri_code [49; 48; 48; 37; 32; 111; 47; 233; 128512] =
    [49; 48; 48; 37; 50; 53; 37; 50; 48; 111; 37; 50; 70; 37; 67; 51; 37; 65; 57; 37; 70; 48; 37; 57; 70; 37; 57; 56; 37; 56; 48] /\
  iri_to_uri_code [47; 37; 32; 60; 233] = [47; 37; 37; 50; 48; 37; 51; 67; 37; 67; 51; 37; 65; 57] /\
  escape_html_uri_code [47; 32; 60; 233] = [47; 32; 60; 37; 67; 51; 37; 65; 57].
Proof. vm_compute. repeat split. Qed.
