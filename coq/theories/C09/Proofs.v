(* C09 lemmas: windows of positions (substring), occurrences (find and what is defined through it), the translate table,
   tokens (normalize-space), the code-point order *)
From Coq Require Import ZArith List Bool Lia ZifyBool.
From EP Require Import Common.Lists C06.Model C09.Model.
Import ListNotations.
Open Scope Z_scope.

(* a predicate that, on the positions of s, holds exactly in [o + a, o + a + n) selects a slice *)
Lemma filter_pos_window : forall s f o a n,
  (forall p, o <= p < o + Z.of_nat (length s) -> f p = (o + Z.of_nat a <=? p) && (p <? o + Z.of_nat a + Z.of_nat n)) ->
  filter_pos f o s = firstn n (skipn a s).
Proof.
  induction s as [|c r IH]; intros f o a n H; [destruct a, n; reflexivity|].
  cbn [length] in H. cbn [filter_pos]. rewrite (H o) by lia.
  (* the head, at position o, lies past an empty window, in the window, or before it *)
  destruct a as [|a']; [destruct n as [|n']|]; cbn [skipn firstn].
  - replace (_ && _) with false by lia. apply (IH f (o + 1) 0%nat 0%nat).
    intros p Hp. rewrite H by lia. lia.
  - replace (_ && _) with true by lia. f_equal. apply (IH f (o + 1) 0%nat n').
    intros p Hp. rewrite H by lia. lia.
  - replace (_ && _) with false by lia. apply (IH f (o + 1) a' n).
    intros p Hp. rewrite H by lia. lia.
Qed.
Lemma filter_pos_from : forall s f o a,
  (forall p, o <= p < o + Z.of_nat (length s) -> f p = (o + Z.of_nat a <=? p)) -> filter_pos f o s = skipn a s.
Proof.
  intros s f o a H. rewrite <- (firstn_all2 (n := length s) (skipn a s)) by (rewrite skipn_length; lia).
  apply filter_pos_window. intros p Hp. rewrite H by lia. lia.
Qed.
Lemma filter_pos_false : forall s f o, (forall p, o <= p -> f p = false) -> filter_pos f o s = [].
Proof. intros s f o H. apply (filter_pos_window s f o 0 0). intros p Hp. rewrite H by lia. lia. Qed.
Lemma filter_pos_true : forall s f o, (forall p, o <= p -> f p = true) -> filter_pos f o s = s.
Proof. intros s f o H. apply (filter_pos_from s f o 0). intros p Hp. rewrite H by lia. lia. Qed.

(* CPython clamps a slice index to the length first; skipn and firstn do not see the difference *)
Lemma clampn_cases : forall (s : ustr) a,
  clampn s a = Z.to_nat a \/ (length s <= Z.to_nat a)%nat /\ clampn s a = length s.
Proof. intros s a. unfold clampn. lia. Qed.
Lemma py_from_eq : forall s a, py_from s a = skipn (Z.to_nat a) s.
Proof.
  intros s a. unfold py_from. destruct (clampn_cases s a) as [->|[H ->]]; [reflexivity|].
  rewrite skipn_all, skipn_all2 by exact H. reflexivity.
Qed.
Lemma firstn_clamp : forall (s t : ustr) a, (length t <= length s)%nat ->
  firstn (clampn s a) t = firstn (Z.to_nat a) t.
Proof.
  intros s t a Hl. destruct (clampn_cases s a) as [->|[H ->]]; [reflexivity|].
  rewrite !firstn_all2 by lia. reflexivity.
Qed.
Lemma py_slice_eq : forall s a b, py_slice s a b = firstn (Z.to_nat (b - a)) (skipn (Z.to_nat a) s).
Proof.
  intros. unfold py_slice. fold (py_from s a). rewrite py_from_eq. apply firstn_clamp. rewrite skipn_length. lia.
Qed.

Definition wf_darg (a : darg) : Prop := match a with DFin _ d => 0 < d | _ => True end.

Lemma round_spec_nonpos : forall m d, 0 < d -> m <= 0 -> round_spec m d <= 0.
Proof.
  intros m d Hd Hm. unfold round_spec.
  assert ((2 * m + d) / (2 * d) < 1); [|lia].
  apply Z.div_lt_upper_bound; lia.
Qed.

Lemma prefixb_spec : forall t s, prefixb t s = true <-> exists r, s = t ++ r.
Proof.
  induction t as [|c t IH]; intros s; cbn.
  - split; [intros _; exists s; reflexivity|auto].
  - destruct s as [|d s'].
    + split; [discriminate|intros (r & H); discriminate].
    + rewrite andb_true_iff, IH. split.
      * intros (Hc & r & ->). exists r. f_equal. lia.
      * intros (r & H). injection H as -> ->. split; [lia|exists r; reflexivity].
Qed.

Lemma skipn_app_length : forall (a b : ustr), skipn (length a) (a ++ b) = b.
Proof. intros a b. rewrite skipn_app, skipn_all, Nat.sub_diag. reflexivity. Qed.

(* t occurs in s at offset i: prefixb t (skipn i s) = true *)
Lemma occurs_app : forall a t b, prefixb t (skipn (length a) (a ++ t ++ b)) = true.
Proof. intros a t b. rewrite skipn_app_length. apply prefixb_spec. eauto. Qed.

Lemma occurs_split : forall t s i, prefixb t (skipn i s) = true ->
  s = firstn i s ++ t ++ skipn (i + length t) s.
Proof.
  intros t s i H. apply prefixb_spec in H as (r & H).
  rewrite skipn_add, H, skipn_app_length, <- H. symmetry. apply firstn_skipn.
Qed.

Lemma find_spec : forall s t,
  match find s t with
  | Some i => prefixb t (skipn i s) = true /\ forall j, (j < i)%nat -> prefixb t (skipn j s) = false
  | None => forall j, prefixb t (skipn j s) = false
  end.
Proof.
  induction s as [|c r IH]; intros t; cbn [find]; destruct (prefixb t _) eqn:P.
  - split; [exact P|lia].
  - intros j. rewrite skipn_nil. exact P.
  - split; [exact P|lia].
  - specialize (IH t). destruct (find r t) as [k|]; cbn [option_map].
    + destruct IH as (H1 & H2). split; [exact H1|]. intros [|j] Hj; [exact P|apply H2; lia].
    + intros [|j]; [exact P|apply IH].
Qed.

Lemma ends_with_spec : forall s t, ends_with s t = true <-> exists a, s = a ++ t.
Proof.
  intros s t. unfold ends_with. rewrite prefixb_spec. split.
  - intros (r & H). exists (rev r). rewrite <- (rev_involutive s), H, rev_app_distr, rev_involutive. reflexivity.
  - intros (a & ->). exists (rev a). apply rev_app_distr.
Qed.

Lemma lookup_app : forall tb c k v,
  lookup c (tb ++ [(k, v)]) = match lookup c tb with Some x => Some x | None => if k =? c then Some v else None end.
Proof.
  induction tb as [|[k' v'] r IH]; intros c k v; cbn; [reflexivity|].
  destruct (k' =? c); [reflexivity|apply IH].
Qed.
(* build_table's step, whether or not k is bound already: earlier entries win *)
Lemma lookup_enter : forall tb c k v,
  lookup c (match lookup k tb with Some _ => tb | None => tb ++ [(k, v)] end) =
  match lookup c tb with Some x => Some x | None => if k =? c then Some v else None end.
Proof.
  intros tb c k v. destruct (lookup k tb) eqn:K; [|apply lookup_app].
  destruct (lookup c tb) eqn:C; [reflexivity|]. destruct (Z.eqb_spec k c); [congruence|reflexivity].
Qed.

Lemma build_lookup : forall map trans tb c,
  lookup c (build_table map trans tb) =
  match lookup c tb with
  | Some v => Some v
  | None => match index_of c map with None => None | Some k => Some (nth_error trans k) end
  end.
Proof.
  induction map as [|x m IH]; intros trans tb c; cbn [build_table index_of].
  - destruct (lookup c tb); reflexivity.
  - rewrite IH, lookup_enter. destruct (lookup c tb); [reflexivity|].
    destruct (x =? c); [destruct trans; reflexivity|].
    destruct (index_of c m) as [k|]; [|reflexivity]. destruct trans; [destruct k|]; reflexivity.
Qed.

Section NS.
Variable ws : Z -> bool.
Definition clean (t : ustr) : Prop := forall c, In c t -> ws c = false.
Definition token (t : ustr) : Prop := t <> [] /\ clean t.

(* what tokens does with the run read so far (held reversed) when it ends *)
Definition flush (cur : ustr) (ts : list ustr) : list ustr := match cur with [] => ts | _ => rev cur :: ts end.
Lemma tokens_nil : forall cur, tokens ws [] cur = flush cur [].
Proof. reflexivity. Qed.
Lemma tokens_cons : forall c r cur,
  tokens ws (c :: r) cur = if ws c then flush cur (tokens ws r []) else tokens ws r (c :: cur).
Proof. reflexivity. Qed.
Lemma flush_rev : forall t ts, t <> [] -> flush (rev t) ts = t :: ts.
Proof.
  intros t ts N. unfold flush. rewrite rev_involutive. destruct (rev t) eqn:E; [|reflexivity].
  destruct N. rewrite <- (rev_involutive t), E. reflexivity.
Qed.
Lemma flush_spec : forall cur ts, clean cur -> Forall token ts ->
  Forall token (flush cur ts) /\ concat (flush cur ts) = rev cur ++ concat ts.
Proof.
  intros [|x cur] ts Hc Hts; [auto|]. split; [|reflexivity]. constructor; [split|exact Hts].
  - intros E. apply (f_equal (@length Z)) in E. rewrite rev_length in E. discriminate.
  - intros y Hy. apply Hc, in_rev, Hy.
Qed.

Lemma tokens_spec : forall s cur, clean cur ->
  Forall token (tokens ws s cur) /\
  concat (tokens ws s cur) = rev cur ++ filter (fun c => negb (ws c)) s.
Proof.
  induction s as [|c r IH]; intros cur Hc; [rewrite tokens_nil; apply flush_spec; auto|].
  rewrite tokens_cons. cbn [filter]. destruct (ws c) eqn:W; cbn [negb].
  - destruct (IH [] ltac:(intros ? [])) as (H1 & H2). cbn [rev app] in H2. rewrite <- H2. apply flush_spec; assumption.
  - destruct (IH (c :: cur)) as (H1 & H2); [intros y [<-|Hy]; auto|].
    split; [exact H1|]. rewrite H2. cbn [rev]. rewrite <- app_assoc. reflexivity.
Qed.

Lemma tokens_app_clean : forall t s cur, clean t -> tokens ws (t ++ s) cur = tokens ws s (rev t ++ cur).
Proof.
  induction t as [|c t IH]; intros s cur Hc; [reflexivity|]. cbn [app rev].
  rewrite tokens_cons, (Hc c) by (left; reflexivity).
  rewrite IH by (intros y Hy; apply Hc; right; exact Hy). rewrite <- app_assoc. reflexivity.
Qed.

(* the joined result re-tokenises to the same tokens: single separators, none at the ends *)
Lemma tokens_join : ws 32 = true -> forall ts, Forall token ts -> tokens ws (join_sp ts) [] = ts.
Proof.
  intros W. induction 1 as [|t r (Hne & Hcl) Hr IH]; [reflexivity|].
  destruct r as [|t' r'].
  - cbn [join_sp]. rewrite <- (app_nil_r t) at 1. rewrite tokens_app_clean, tokens_nil, app_nil_r by exact Hcl.
    apply flush_rev, Hne.
  - change (join_sp (t :: t' :: r')) with (t ++ 32 :: join_sp (t' :: r')).
    rewrite tokens_app_clean, tokens_cons, W, app_nil_r, IH by exact Hcl. apply flush_rev, Hne.
Qed.

End NS.

Lemma compare_cp_antisym : forall a b, compare_cp b a = - compare_cp a b.
Proof.
  induction a as [|x a IH]; intros [|y b]; cbn; auto.
  destruct (x <? y) eqn:E1, (y <? x) eqn:E2; try lia; try apply IH.
Qed.
Lemma compare_cp_eq : forall a b, compare_cp a b = 0 <-> a = b.
Proof.
  induction a as [|x a IH]; intros [|y b]; cbn [compare_cp]; try (split; discriminate); [tauto|].
  destruct (Z.ltb_spec x y) as [L|L]; [|destruct (Z.ltb_spec y x) as [G|G]].
  - split; [discriminate|]. intros [= -> _]. lia.
  - split; [discriminate|]. intros [= -> _]. lia.
  - replace y with x by lia. rewrite IH. split; [intros ->; reflexivity|intros [= ->]; reflexivity].
Qed.
Lemma compare_cp_refl : forall a, compare_cp a a = 0.
Proof. intros a. apply compare_cp_eq. reflexivity. Qed.
Lemma compare_cp_range : forall a b, compare_cp a b = -1 \/ compare_cp a b = 0 \/ compare_cp a b = 1.
Proof.
  induction a as [|x a IH]; intros [|y b]; cbn; auto.
  destruct (x <? y); auto. destruct (y <? x); auto.
Qed.
Lemma compare_cp_cons_lt : forall x y a b,
  compare_cp (x :: a) (y :: b) = -1 <-> x < y \/ x = y /\ compare_cp a b = -1.
Proof.
  intros x y a b. cbn [compare_cp]. destruct (Z.ltb_spec x y) as [L|L]; [|destruct (Z.ltb_spec y x) as [G|G]].
  - split; [left; exact L|reflexivity].
  - split; [discriminate|lia].
  - split; [intros H; right; split; [lia|exact H]|]. intros [H|[_ H]]; [lia|exact H].
Qed.
Lemma compare_cp_trans : forall a b c, compare_cp a b = -1 -> compare_cp b c = -1 -> compare_cp a c = -1.
Proof.
  induction a as [|x a IH]; intros [|y b] [|z c]; try (cbn; discriminate || reflexivity).
  rewrite !compare_cp_cons_lt. intros [Hxy|[-> Hab]] [Hyz|[-> Hbc]].
  - lia.
  - left. exact Hxy.
  - left. exact Hyz.
  - right. split; [reflexivity|exact (IH b c Hab Hbc)].
Qed.
Lemma codepoint_equal_iff : forall a b, codepoint_equal a b = true <-> a = b.
Proof.
  induction a as [|x a IH]; intros [|y b]; cbn; try (split; discriminate); [tauto|].
  rewrite andb_true_iff, Z.eqb_eq, IH. split; [intros (-> & ->); reflexivity|intros [= -> ->]; split; reflexivity].
Qed.
