From Coq Require Import ZArith List.
From EP Require Import C15.Keys C10.Model C10.Proofs C09.XPath1Args.
Import ListNotations.
Open Scope Z_scope.

(* the numeral of an integer is in the lexical space of xs:integer and reads back as the same integer: the string of a
   number converts back to the number *)
Theorem C09_xpath1_string_of_integer : forall z,
  string1 (ANum1 (NFin z 1)) = Some (print_int z) /\ lex_integer (print_int z) = true /\ int_value (print_int z) = Some z.
Proof.
  intros z. split.
  - cbn. unfold is_int. rewrite Z.mod_1_r. cbn. rewrite Z.div_1_r. reflexivity.
  - split; [apply print_int_lex|apply print_int_value].
Qed.
Print Assumptions C09_xpath1_string_of_integer.
(* FULL STATEMENT: forall a, string1_code a = string1 a.  False of the code for the two infinities (known finding
   C09-xpath1-infinity-string, pinned by tests/test_xpath_tokens.py) *)
Theorem C09_xpath1_string_refuted : exists a, string1_code a <> string1 a.
Proof. exists (ANum1 NPInf). discriminate. Qed.
Print Assumptions C09_xpath1_string_refuted.
Theorem C09_xpath1_string_partial : forall a, a <> ANum1 NPInf -> a <> ANum1 NNInf -> string1_code a = string1 a.
Proof. intros [b|[n d| | |]] H1 H2; try reflexivity; contradiction. Qed.
Print Assumptions C09_xpath1_string_partial.
