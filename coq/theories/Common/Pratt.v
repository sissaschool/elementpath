(* Generic Pratt (top-down operator precedence) parser, mirroring Parser.expression (tdop.py 613-627):
     left = nud();  while rbp < next.lbp: left = led(left)
   over a table (lbp, rbp of led, rbp of nud, led's non-associativity check), and the proof that it
   re-parses exactly the trees the EBNF precedence / associativity rules derive. *)
From Coq Require Import Arith List Bool Lia ZifyBool.
Import ListNotations.

(* outcome of the parser: a result, a syntax error (the code raises XPST0003), or fuel exhaustion of the model
   (proved impossible with the fuel parse uses: expr_total) *)
Inductive res (A : Type) := Ok (a : A) | Reject | OutOfFuel.
Arguments Ok {A} a. Arguments Reject {A}. Arguments OutOfFuel {A}.

Section Pratt.
Variable op : Type.
Variable lbp : op -> nat.                (* left binding power of the infix role *)
Variable rbpL : op -> nat.               (* rbp passed by led() to its recursive expression() call *)
Variable nudR : op -> option nat.        (* Some b: the symbol also has a prefix role calling expression(b) *)
Variable conflict : op -> option op -> bool.   (* led() of o rejects a left operand whose root symbol is o' *)

Inductive tok := TAtom (n : nat) | TOp (o : op) | TL | TR.
Inductive tree := Atom (n : nat) | Paren (t : tree) | Pre (o : op) (t : tree) | Bin (o : op) (l r : tree).

Fixpoint lin (t : tree) : list tok :=
  match t with
  | Atom n => [TAtom n]
  | Paren t => TL :: lin t ++ [TR]
  | Pre o t => TOp o :: lin t
  | Bin o l r => lin l ++ TOp o :: lin r
  end.

Definition root (t : tree) : option op :=
  match t with Bin o _ _ => Some o | Pre o _ => Some o | _ => None end.

Fixpoint expr (fuel rbp : nat) (ts : list tok) : res (tree * list tok) :=
  match fuel with 0 => OutOfFuel | S f =>
    match ts with
    | TAtom n :: r => loop f rbp (Atom n) r
    | TL :: r => match expr f 0 r with
                 | Ok (t, TR :: r') => loop f rbp (Paren t) r'
                 | Ok _ => Reject
                 | Reject => Reject
                 | OutOfFuel => OutOfFuel end
    | TOp o :: r => match nudR o with
                    | Some b => match expr f b r with
                                | Ok (t, r') => loop f rbp (Pre o t) r'
                                | Reject => Reject
                                | OutOfFuel => OutOfFuel end
                    | None => Reject end
    | _ => Reject
    end
  end
with loop (fuel rbp : nat) (left : tree) (ts : list tok) : res (tree * list tok) :=
  match fuel with 0 => OutOfFuel | S f =>
    match ts with
    | TOp o :: r => if rbp <? lbp o
                    then (if conflict o (root left) then Reject
                          else match expr f (rbpL o) r with
                               | Ok (rt, r') => loop f rbp (Bin o left rt) r'
                               | Reject => Reject
                               | OutOfFuel => OutOfFuel end)
                    else Ok (left, ts)
    | _ => Ok (left, ts)
    end
  end.

Definition parse (ts : list tok) : option tree :=
  match expr (2 * length ts + 2) 0 ts with Ok (t, []) => Some t | _ => None end.

(* next token does not continue a loop running at power b *)
Definition halts (b : nat) (ts : list tok) : Prop :=
  match ts with TOp o :: _ => lbp o <= b | _ => True end.

(* every expression() call still open at the right edge of t halts in front of ts *)
Fixpoint edge (t : tree) (ts : list tok) : Prop :=
  match t with
  | Atom _ | Paren _ => True
  | Pre o t' => match nudR o with Some b => halts b ts /\ edge t' ts | None => False end
  | Bin o _ r => halts (rbpL o) ts /\ edge r ts
  end.

(* shape of the trees that expression(b) can return *)
Fixpoint img (b : nat) (t : tree) : Prop :=
  match t with
  | Atom _ => True
  | Paren t' => img 0 t'
  | Pre o t' => match nudR o with Some c => img c t' | None => False end
  | Bin o l r => b < lbp o /\ conflict o (root l) = false /\ img b l /\ edge l [TOp o] /\ img (rbpL o) r
  end.

Fixpoint size (t : tree) : nat :=
  match t with Atom _ => 1 | Paren t => 2 + size t | Pre _ t => 1 + size t | Bin _ l r => 1 + size l + size r end.

Lemma lin_length : forall t, length (lin t) = size t.
Proof.
  induction t; cbn [lin size length]; rewrite ?app_length; cbn [length]; lia.
Qed.

Lemma edge_ext : forall t ts ts', (forall b, halts b ts -> halts b ts') -> edge t ts -> edge t ts'.
Proof.
  induction t as [n|t IH|o t IH|o l IHl r IHr]; cbn; intros ts ts' H H0; auto.
  - destruct (nudR o); [|tauto]. destruct H0. split; eauto.
  - destruct H0. split; eauto.
Qed.
Lemma loop_halts : forall f b t ts, halts b ts -> loop (S f) b t ts = Ok (t, ts).
Proof.
  intros f b t ts H. cbn [loop]. destruct ts as [|[n|o| |] r]; auto.
  cbn in H. destruct (Nat.ltb_spec b (lbp o)); [lia|reflexivity].
Qed.
Lemma halts_head : forall b t r r', halts b (t :: r) -> halts b (t :: r').
Proof. intros b t r r' H. exact H. Qed.
Lemma edge_head : forall t x r r', edge t (x :: r) -> edge t (x :: r').
Proof. intros t x r r'. apply edge_ext. intros b. apply halts_head. Qed.
(* the hypothesis on ts holds of the empty list and of one that starts with ')' *)
Lemma edge_free : forall t b ts, (forall c, halts c ts) -> img b t -> edge t ts.
Proof.
  induction t as [n|t IH|o t IH|o l IHl r IHr]; intros b ts Hts Himg; cbn in *; auto.
  - destruct (nudR o); [|tauto]. split; eauto.
  - destruct Himg as (_ & _ & _ & _ & Hr). split; eauto.
Qed.
Lemma edge_TR : forall t b r, img b t -> edge t (TR :: r).
Proof. intros t b r. apply edge_free. intros c. exact I. Qed.

Lemma loop_stops : forall b t ts, halts b ts -> forall f, f >= 1 -> loop f b t ts = Ok (t, ts).
Proof. intros b t ts H [|f] Hf; [lia|]. apply loop_halts, H. Qed.

(* continuation-passing form: once lin t has been consumed the parser is in "loop b t rest";
   whatever that returns, expr returns *)
Lemma pratt_cps : forall t b rest res f0,
  img b t -> edge t rest ->
  (forall f, f >= f0 -> loop f b t rest = Ok res) ->
  forall f, f >= f0 + 2 * size t -> expr f b (lin t ++ rest) = Ok res.
Proof.
  induction t as [n|t IH|o t IH|o l IHl r IHr]; intros b rest res f0 Himg Hedge Hk f Hf;
    cbn [lin size img edge app] in *; rewrite <- ?app_assoc; cbn [app].
  - destruct f as [|f]; [lia|]. apply Hk. lia.
  - destruct f as [|f]; [lia|]. cbn [expr].
    rewrite (IH 0 (TR :: rest) (t, TR :: rest) 1 Himg (edge_TR t 0 rest Himg) (loop_stops 0 t (TR :: rest) I)); [|lia].
    apply Hk. lia.
  - destruct f as [|f]; [lia|]. cbn [expr].
    destruct (nudR o) as [c|]; [|tauto]. destruct Hedge as [Hh He].
    rewrite (IH c rest (t, rest) 1 Himg He (loop_stops c t rest Hh)); [|lia].
    apply Hk. lia.
  - destruct Himg as (Hb & Hc & Hil & Hel & Hir). destruct Hedge as [Hh Her].
    apply (IHl b _ res (f0 + 2 * size r + 2) Hil (edge_head l _ _ _ Hel)); [|lia].
    (* the loop after l takes o, parses r and is then where Hk speaks *)
    intros [|f'] Hf'; [lia|]. cbn [loop].
    destruct (Nat.ltb_spec b (lbp o)); [|lia]. rewrite Hc.
    rewrite (IHr (rbpL o) rest (r, rest) 1 Hir Her (loop_stops _ r rest Hh)); [|lia].
    apply Hk. lia.
Qed.

Theorem pratt_correct : forall t b rest fuel,
  img b t -> edge t rest -> halts b rest -> fuel >= 2 * size t + 1 ->
  expr fuel b (lin t ++ rest) = Ok (t, rest).
Proof.
  intros t b rest fuel Hi He Hh Hf.
  apply (pratt_cps t b rest (t, rest) 1 Hi He (loop_stops b t rest Hh)). lia.
Qed.

Corollary parse_lin : forall t, img 0 t -> parse (lin t) = Some t.
Proof.
  intros t Hi. unfold parse. rewrite <- (app_nil_r (lin t)) at 2.
  rewrite (pratt_correct t 0 []); auto.
  - apply (edge_free t 0); auto. intros c. exact I.
  - exact I.
  - rewrite lin_length. lia.
Qed.

(* x is not fuel exhaustion, and a result leaves at most n tokens *)
Definition ends (n : nat) (x : res (tree * list tok)) : Prop :=
  match x with Ok (_, r) => length r <= n | Reject => True | OutOfFuel => False end.

Lemma ends_bind : forall n m x (k : tree -> list tok -> res (tree * list tok)),
  ends n x -> (forall t r, length r <= n -> ends m (k t r)) ->
  ends m (match x with Ok (t, r) => k t r | Reject => Reject | OutOfFuel => OutOfFuel end).
Proof. intros n m [[t r]| |] k; auto. Qed.

(* the parser core always terminates: with more fuel than tokens neither expr nor loop runs out of it, and
   every successful call of expr consumes at least one token.  Each call passes one unit of fuel less to the
   calls it makes, and makes each of them after at least one more token has been consumed. *)
Lemma expr_loop_ends : forall fuel,
  (forall b ts, length ts < fuel -> ends (pred (length ts)) (expr fuel b ts)) /\
  (forall b l ts n, length ts <= n -> length ts < fuel -> ends n (loop fuel b l ts)).
Proof.
  induction fuel as [|f [IHe IHl]]; [split; lia|].
  split.
  - intros b [|[n|o| |] r] Hf; cbn [expr length pred] in *; try exact I.
    + apply IHl; lia.
    + destruct (nudR o) as [c|]; [|exact I].
      eapply ends_bind; [apply IHe; lia|]. intros t r' Hr. apply IHl; lia.
    + eapply ends_bind; [apply IHe; lia|]. intros t [|[n|o| |] r'] Hr; try exact I.
      cbn [length] in Hr. apply IHl; lia.
  - intros b l [|[n|o| |] r] m Hm Hf; cbn [loop length] in *; try exact Hm.
    destruct (b <? lbp o); [|exact Hm]. destruct (conflict o (root l)); [exact I|].
    eapply ends_bind; [apply IHe; lia|]. intros t r' Hr. apply IHl; lia.
Qed.
Theorem expr_total : forall ts, expr (2 * length ts + 2) 0 ts <> OutOfFuel.
Proof.
  intros ts E. pose proof (proj1 (expr_loop_ends (2 * length ts + 2)) 0 ts) as H.
  rewrite E in H. apply H. lia.
Qed.

(* The EBNF side: operators have a grammar level (higher = binds tighter) and are left-associative
   or non-associative; prefix operators live at level ulevel.                                      *)
Variable slevel : op -> nat.
Variable nonassoc : op -> bool.
Variable ulevel : nat.

(* t is derivable from the nonterminal of level k *)
Fixpoint canon (k : nat) (t : tree) : Prop :=
  match t with
  | Atom _ => True
  | Paren t' => canon 0 t'
  | Pre o t' => nudR o <> None /\ k <= ulevel /\ canon ulevel t'
  | Bin o l r => k <= slevel o /\ canon (if nonassoc o then S (slevel o) else slevel o) l /\ canon (S (slevel o)) r
  end.

(* what the binding-power table must satisfy to realise the grammar *)
Record table_ok : Prop := {
  ok_order : forall o o', slevel o <= slevel o' <-> lbp o <= lbp o';
  ok_rbp : forall o, rbpL o = lbp o;
  ok_conflict_sound : forall o o', conflict o (Some o') = true -> nonassoc o = true /\ slevel o' <= slevel o;
  ok_conflict_none : forall o, conflict o None = false;
  ok_prefix : forall o p o', nudR o = Some p -> (slevel o' <= ulevel <-> lbp o' <= p);
  ok_prefix_conflict : forall o o', conflict o (Some o') = true -> nudR o' = None;
  ok_pos : forall o, 0 < lbp o;
  ok_ulevel_free : forall o, slevel o <> ulevel      (* no binary operator at the level of the prefix operators *)
}.

Hypothesis OK : table_ok.

Lemma canon_weaken : forall t k k', canon k t -> k' <= k -> canon k' t.
Proof. destruct t; cbn; intros; auto; intuition lia. Qed.

(* a tree of level >= slevel o stops in front of the operator o *)
Lemma canon_edge : forall t k o, canon k t -> slevel o <= k -> edge t [TOp o].
Proof.
  induction t as [n|t IH|o1 t IH|o1 l IHl r IHr]; intros k o Hc Hk; cbn [edge canon halts]; auto.
  - destruct Hc as (Hn & Hu & Hc). destruct (nudR o1) as [p|] eqn:E; [|congruence].
    split; [apply (ok_prefix OK o1 p o E)|apply (IH ulevel)]; auto; lia.
  - destruct Hc as (H1 & H2 & H3). rewrite (ok_rbp OK).
    split; [apply (ok_order OK)|apply (IHr (S (slevel o1)))]; auto; lia.
Qed.

Lemma root_level : forall t k o, canon k t -> root t = Some o -> k <= slevel o \/ nudR o <> None.
Proof.
  destruct t; cbn; intros k o' Hc Hr; try discriminate; injection Hr as <-; tauto.
Qed.

Lemma canon_img : forall t k b, canon k t -> (forall o, k <= slevel o -> b < lbp o) -> img b t.
Proof.
  induction t as [n|t IH|o t IH|o l IHl r IHr]; intros k b Hc Hb; cbn [img canon]; auto.
  - apply (IH 0); auto. intros o _. exact (ok_pos OK o).
  - destruct Hc as (Hn & Hu & Hc). destruct (nudR o) as [p|] eqn:E; [|congruence].
    apply (IH ulevel); auto. intros o' Ho'.
    pose proof (ok_prefix OK o p o' E). pose proof (ok_ulevel_free OK o'). lia.
  - destruct Hc as (H1 & H2 & H3). repeat split.
    + auto.
    + destruct (conflict o (root l)) eqn:C; [exfalso|reflexivity].
      destruct (root l) as [o'|] eqn:R; [|rewrite (ok_conflict_none OK) in C; discriminate].
      destruct (ok_conflict_sound OK o o' C) as (Hna & Hle). rewrite Hna in H2.
      destruct (root_level l _ o' H2 R) as [Hr|Hr]; [lia|].
      exact (Hr (ok_prefix_conflict OK o o' C)).
    + eapply IHl; eauto. intros o' Ho'. apply Hb. destruct (nonassoc o); lia.
    + eapply canon_edge; eauto. destruct (nonassoc o); lia.
    + eapply IHr; eauto. intros o' Ho'. rewrite (ok_rbp OK).
      pose proof (ok_order OK o' o). lia.
Qed.

Theorem canon_parse : forall t, canon 0 t -> parse (lin t) = Some t.
Proof. intros t Hc. apply parse_lin, (canon_img t 0 0 Hc). intros o _. exact (ok_pos OK o). Qed.
End Pratt.

(* A boolean checker for table_ok over a finite, complete enumeration of the operators.            *)
Section Checker.
Variable op : Type.
Variable lbp rbpL : op -> nat.
Variable nudR : op -> option nat.
Variable conflict : op -> option op -> bool.
Variable slevel : op -> nat.
Variable nonassoc : op -> bool.
Variable ulevel : nat.
Variable all : list op.
Hypothesis all_complete : forall o, In o all.

Definition is_none {A} (x : option A) : bool := match x with None => true | Some _ => false end.

Definition table_okb : bool :=
  forallb (fun o => forallb (fun o' => Bool.eqb (slevel o <=? slevel o') (lbp o <=? lbp o')) all) all
  && forallb (fun o => rbpL o =? lbp o) all
  && forallb (fun o => forallb (fun o' => implb (conflict o (Some o'))
                                               (nonassoc o && (slevel o' <=? slevel o) && is_none (nudR o'))) all) all
  && forallb (fun o => negb (conflict o None)) all
  && forallb (fun o => match nudR o with
                       | Some p => forallb (fun o' => Bool.eqb (slevel o' <=? ulevel) (lbp o' <=? p)) all
                       | None => true end) all
  && forallb (fun o => 0 <? lbp o) all
  && forallb (fun o => negb (slevel o =? ulevel)) all.

(* non-associative operators reject every same-level operator as left operand's root (completeness of the check) *)
Definition nonassoc_completeb : bool :=
  forallb (fun o => forallb (fun o' => implb (nonassoc o && (slevel o' =? slevel o)) (conflict o (Some o'))) all) all.

Lemma forallb_all : forall (f : op -> bool), forallb f all = true -> forall o, f o = true.
Proof. intros f H o. rewrite forallb_forall in H. apply H. apply all_complete. Qed.

Lemma forallb_all2 : forall (f : op -> op -> bool),
  forallb (fun o => forallb (f o) all) all = true -> forall o o', f o o' = true.
Proof. intros f H o. exact (forallb_all _ (forallb_all _ H o)). Qed.

Lemma table_okb_sound : table_okb = true -> table_ok op lbp rbpL nudR conflict slevel nonassoc ulevel.
Proof.
  unfold table_okb. rewrite !andb_true_iff. intros ((((((H1 & H2) & H3) & H4) & H5) & H6) & H7).
  (* pointwise first: lia translates every hypothesis it can read, and the seven conjuncts are large *)
  pose proof (forallb_all2 _ H1) as K1. pose proof (forallb_all _ H2) as K2. pose proof (forallb_all2 _ H3) as K3.
  pose proof (forallb_all _ H4) as K4. pose proof (forallb_all _ H5) as K5. pose proof (forallb_all _ H6) as K6.
  pose proof (forallb_all _ H7) as K7.
  clear H1 H2 H3 H4 H5 H6 H7. cbv beta in *.
  constructor; intros o.
  - intros o'. specialize (K1 o o'). lia.
  - specialize (K2 o). lia.
  - intros o'. specialize (K3 o o'). lia.
  - specialize (K4 o). lia.
  - intros p o' E. specialize (K5 o). rewrite E in K5. apply forallb_all with (o := o') in K5. lia.
  - intros o' C. specialize (K3 o o'). destruct (nudR o'); [cbn in K3; lia|reflexivity].
  - specialize (K6 o). lia.
  - specialize (K7 o). lia.
Qed.

Theorem grouping : table_okb = true ->
  forall t, canon op nudR slevel nonassoc ulevel 0 t -> parse op lbp rbpL nudR conflict (lin op t) = Some t.
Proof. intros H. exact (canon_parse _ _ _ _ _ _ _ _ (table_okb_sound H)). Qed.
End Checker.
