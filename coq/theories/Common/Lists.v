(* List facts used by more than one development that the standard library of Coq 8.16 lacks. *)
From Coq Require Import List.

Lemma existsb_ext : forall (A : Type) (f g : A -> bool) l, (forall x, f x = g x) -> existsb f l = existsb g l.
Proof. intros A f g l H. induction l as [|x r IH]; cbn; [reflexivity|rewrite H, IH; reflexivity]. Qed.

Lemma skipn_add : forall (A : Type) (i n : nat) (l : list A), skipn (i + n) l = skipn n (skipn i l).
Proof. induction i as [|i IH]; intros n [|x l]; cbn; auto using skipn_nil. Qed.
