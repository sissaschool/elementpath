From Coq Require Import ZArith List Lia.
From EP Require Import Gen.C02Positions C02.Model.
Import ListNotations.
Open Scope Z_scope.

(* lo <= pos n1 < pos n2 < ... < hi, parents before children *)
Fixpoint chain (lo : Z) (l : list node) (hi : Z) : Prop :=
  match l with [] => lo <= hi | n :: r => lo <= pos n /\ ppos n < pos n /\ chain (pos n + 1) r hi end.

Lemma chain_le : forall l lo hi, chain lo l hi -> lo <= hi.
Proof. induction l as [|n r IH]; cbn; intros lo hi H; [lia|]. destruct H as (H1 & H2 & H3). apply IH in H3. lia. Qed.
Lemma chain_app : forall l1 l2 a b c, chain a l1 b -> chain b l2 c -> chain a (l1 ++ l2) c.
Proof.
  induction l1 as [|n r IH]; cbn; intros l2 a b c H1 H2.
  - destruct l2; cbn in *; intuition lia.
  - destruct H1 as (Ha & Hb & Hc). eauto.
Qed.
(* a run of the numbering that chains from q: its nodes, and an end that is not before q *)
Lemma chain_run : forall (r : list node * Z) q, chain q (fst r) (snd r) ->
  exists l q', r = (l, q') /\ chain q l q' /\ q <= q'.
Proof. intros [l q'] q H. exists l, q'. split; [reflexivity|]. split; [exact H|exact (chain_le _ _ _ H)]. Qed.
Lemma chain_increasing : forall l lo hi, chain lo l hi -> increasing lo l.
Proof. induction l as [|n r IH]; cbn; intros lo hi H; auto. destruct H as (H1 & H2 & H3). repeat split; auto. eapply IH; eauto. Qed.

Lemma chain_seq : forall n start parent k, parent < start ->
  chain start (map (fun q => mknode k q parent) (seqz start n)) (start + Z.of_nat n).
Proof.
  induction n as [|n IH]; intros start parent k Hp; cbn [seqz map chain]; [lia|].
  cbn [pos ppos]. repeat split; try lia.
  replace (start + Z.of_nat (S n)) with (start + 1 + Z.of_nat n) by lia. apply IH. lia.
Qed.

Lemma attr_start_gap : forall p nns x, (x = true -> (1 <= nns)%nat) ->
  attr_start p (Z.of_nat nns) (negb x) = ns_first p + Z.of_nat (ns_count nns x).
Proof. intros p nns x H. unfold attr_start, ns_first, ns_count. destruct x; cbn [negb]; [specialize (H eq_refl)|]; lia. Qed.

(* an optional text node (text or tail) *)
Lemma text_chain : forall (b : bool) q parent, parent < q ->
  let r := if b then ([mknode 4 q parent], q + 1) else ([], q) in chain q (fst r) (snd r).
Proof. intros [|] q parent H; cbn; lia. Qed.

(* all P ch is convertible with the inner fix of wf_tree and et_tree *)
Definition all (P : xtree -> Prop) := fix all (l : list xtree) : Prop := match l with [] => True | c :: r => P c /\ all r end.

(* P passes from an element to its children, and on an element of P the reserved gap is exactly: the element, its
   namespace nodes, its attributes *)
Definition reserves (incr : nat -> nat -> bool -> Z) (P : xtree -> Prop) : Prop := forall nns x a text ch tl,
  P (XElem nns x a text ch tl) ->
  (x = true -> (1 <= nns)%nat) /\ incr nns a x = 1 + Z.of_nat (ns_count nns x) + Z.of_nat a /\ all P ch.

Section Build.
Variable incr : nat -> nat -> bool -> Z.
Variable P : xtree -> Prop.
Hypothesis P_elem : reserves incr P.

Lemma build_chain : forall t parent p, P t -> parent < p ->
  chain p (fst (build incr t parent p)) (snd (build incr t parent p)).
Proof.
  (* the recursion on the tree is the fix; the children are numbered by the inner build_list of the model, named bl, whose
     chain Hbl is by induction on the list of children; the element's nodes are then chained: namespace nodes, attributes,
     text, children with their tails *)
  fix IH 1. intros [nns x a text ch tl|tl|tl] parent p Hok Hp; [|cbn; lia..].
  destruct (P_elem _ _ _ _ _ _ Hok) as (Hx & Hin & Hch). cbn [build].
  pose proof (attr_start_gap p nns x Hx) as Hgap. unfold ns_first in Hgap.
  set (p1 := p + _).
  destruct (chain_run _ _ (text_chain text p1 p ltac:(lia))) as (tx & p2 & -> & Htxt & ?).
  set (bl := fix build_list (l : list xtree) (q : Z) {struct l} : list node * Z := _).
  assert (Hbl : forall l q, all P l -> p < q -> chain q (fst (bl l q)) (snd (bl l q))).
  { induction l as [|c r IHr]; intros q Hall Hq; [cbn; lia|].
    destruct Hall as (Hc & Hr). cbn [bl].
    destruct (chain_run _ _ (IH c p q Hc Hq)) as (ns & q1 & -> & H1 & ?).
    destruct (chain_run _ _ (text_chain (has_tail c) q1 p ltac:(lia))) as (tl' & q2 & -> & Htl & ?).
    destruct (chain_run _ _ (IHr q2 Hr ltac:(lia))) as (rest & q3 & -> & H3 & _).
    exact (chain_app _ _ _ _ _ H1 (chain_app _ _ _ _ _ Htl H3)). }
  destruct (chain_run _ _ (Hbl ch p2 Hch ltac:(lia))) as (chn & p3 & -> & H5 & _).
  cbn [fst snd chain pos ppos]. split; [lia|]. split; [lia|].
  eapply chain_app; [apply (chain_seq (ns_count nns x) (ns_first p) p 2); unfold ns_first; lia|].
  unfold ns_first. rewrite <- Hgap.
  eapply chain_app; [apply (chain_seq a _ p 3); lia|].
  replace (attr_start p (Z.of_nat nns) (negb x) + Z.of_nat a) with p1 by lia.
  exact (chain_app _ _ _ _ _ Htxt H5).
Qed.

Lemma siblings_chain : forall l parent q, Forall P l -> parent < q ->
  chain q (fst (build_siblings incr l parent q)) (snd (build_siblings incr l parent q)).
Proof.
  intros l parent q H. revert q. induction H as [|c r Hc _ IH]; intros q Hq; cbn [build_siblings]; [cbn; lia|].
  destruct (chain_run _ _ (build_chain c parent q Hc Hq)) as (ns & q1 & -> & A & ?).
  destruct (chain_run _ _ (IH q1 ltac:(lia))) as (rest & q2 & -> & C & _).
  exact (chain_app _ _ _ _ _ A C).
Qed.

Lemma positions_increasing : forall pre root post, Forall P pre -> P root -> Forall P post ->
  increasing 1 (build_document incr pre root post) /\ increasing 1 (build_element incr root).
Proof.
  intros pre root post Hpre Hroot Hpost. split; [|exact (chain_increasing _ _ _ (build_chain root 0 1 Hroot eq_refl))].
  unfold build_document.
  destruct (chain_run _ _ (siblings_chain pre 1 2 Hpre eq_refl)) as (a & p1 & -> & A & ?).
  destruct (chain_run _ _ (build_chain root 1 p1 Hroot ltac:(lia))) as (b & p2 & -> & C & ?).
  destruct (chain_run _ _ (siblings_chain post 1 p2 Hpost ltac:(lia))) as (c & p3 & -> & E & _).
  cbn [increasing pos ppos]. split; [lia|]. split; [lia|].
  exact (chain_increasing _ _ _ (chain_app _ _ _ _ _ A (chain_app _ _ _ _ _ C E))).
Qed.
End Build.

Lemma reserves_lxml : reserves incr_lxml wf_tree.
Proof.
  intros nns x a text ch tl (Hx & Hch). split; [exact Hx|]. split; [|exact Hch].
  unfold incr_lxml, lxml_elem_incr, ns_count. destruct x; [specialize (Hx eq_refl)|]; lia.
Qed.
Lemma reserves_et : forall gn gx, reserves (incr_et gn gx) (fun t => wf_tree t /\ et_tree gn gx t).
Proof.
  intros gn gx nns x a text ch tl ((Hx & Hch) & <- & <- & Hech). split; [exact Hx|]. split.
  - unfold incr_et, et_elem_incr, et_ns_pos_offset, ns_count. destruct x; cbn [negb]; [specialize (Hx eq_refl)|]; lia.
  - induction ch as [|c r IH]; [exact I|]. destruct Hch as (Hc & Hr). destruct Hech as (Hec & Her). split; auto.
Qed.

Lemma increasing_nodup : forall l lo, increasing lo l -> NoDup (map pos l) /\ forall n, In n l -> lo <= pos n.
Proof.
  induction l as [|n r IH]; intros lo H; cbn; [split; [constructor|tauto]|].
  destruct H as (H1 & H2 & H3). destruct (IH _ H3) as (Hn & Hb). split.
  - constructor; auto. intros Hin. apply in_map_iff in Hin. destruct Hin as (m & Em & Hm). apply Hb in Hm. lia.
  - intros m [<-|Hm]; [lia|]. apply Hb in Hm. lia.
Qed.
