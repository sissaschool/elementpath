From Coq Require Import ZArith List.
From EP Require Import Gen.C02Positions C02.Model C02.Proofs.
Import ListNotations.
Open Scope Z_scope.

(* lxml builder: for every document (comments / PIs around the root included) node positions strictly increase in
   document order - element, then its namespace nodes, then its attributes, then text and children with their
   tails - and every parent precedes its children *)
Theorem C02_positions_strict_lxml : forall pre root post,
  Forall wf_tree pre -> wf_tree root -> Forall wf_tree post ->
  increasing 1 (build_document incr_lxml pre root post) /\ increasing 1 (build_element incr_lxml root).
Proof. exact (positions_increasing _ _ reserves_lxml). Qed.
Print Assumptions C02_positions_strict_lxml.

(* ElementTree builder: one namespaces mapping (gn entries, gx = 'xml' in it) shared by every element *)
Theorem C02_positions_strict_et : forall gn gx root, wf_tree root -> et_tree gn gx root ->
  increasing 1 (build_document (incr_et gn gx) [] root []) /\ increasing 1 (build_element (incr_et gn gx) root).
Proof.
  intros gn gx root H1 H2. apply (positions_increasing _ _ (reserves_et gn gx)); auto.
Qed.
Print Assumptions C02_positions_strict_et.

(* hence positions are unique: identity by position is node identity *)
Theorem C02_positions_unique : forall l lo, increasing lo l -> NoDup (map pos l).
Proof. intros l lo H. exact (proj1 (increasing_nodup l lo H)). Qed.
Print Assumptions C02_positions_unique.

(* the regenerated increments reserve exactly the gap: element + namespace nodes + attributes *)
Theorem C02_gap_exact : forall p nns a x, (x = true -> (1 <= nns)%nat) ->
  attr_start p (Z.of_nat nns) (negb x) = ns_first p + Z.of_nat (ns_count nns x) /\
  p + incr_lxml nns a x = attr_start p (Z.of_nat nns) (negb x) + Z.of_nat a /\
  p + incr_et nns x nns a x = attr_start p (Z.of_nat nns) (negb x) + Z.of_nat a.
Proof.
  intros p nns a x H. split; [exact (attr_start_gap p nns x H)|].
  unfold incr_lxml, lxml_elem_incr, incr_et, et_elem_incr, et_ns_pos_offset, attr_start.
  destruct x; cbn [negb]; split; ring.
Qed.
Print Assumptions C02_gap_exact.

Example C02_nonvacuous :
  wf_tree (XElem 2 true 1 true [XComment true; XElem 2 true 0 false [XPI false] true] false) /\
  et_tree 2 true (XElem 2 true 1 true [XComment true; XElem 2 true 0 false [XPI false] true] false) /\
  map pos (build_element incr_lxml (XElem 1 false 2 true [XElem 1 false 0 false [] true] false)) = [1; 2; 3; 4; 5; 6; 7; 8; 9; 10].
Proof. vm_compute. repeat split; auto. Qed.
