From Coq Require Import ZArith List.
From EP Require Import C16.Model.
Import ListNotations.
Open Scope Z_scope.

Lemma create_on_token_spec : forall x vs tok,
  create_on_token x vs tok = (repeat O (length vs), match vs with [] => tok | _ => Some [(x, last vs 0)] end).
Proof.
  intros x. induction vs as [|v r IH]; intros tok; [reflexivity|].
  cbn [create_on_token]. rewrite IH. destruct r; reflexivity.
Qed.

Lemma bind_all_ext : forall ps args e1 e2, env_eq e1 e2 -> env_eq (bind_all ps args e1) (bind_all ps args e2).
Proof.
  induction ps as [|p ps IH]; intros args e1 e2 H; [exact H|].
  destruct args as [|a args]; [exact H|]. apply IH.
  intros x. cbn [lookup]. destruct (Nat.eqb p x); [reflexivity|apply H].
Qed.

Lemma lookup_app_swap : forall (E : env) p v d, ~ In p (map fst E) ->
  env_eq (E ++ (p, v) :: d) ((p, v) :: E ++ d).
Proof.
  induction E as [|[q w] E IH]; intros p v d H x; [reflexivity|].
  cbn [app lookup]. cbn [map fst In] in H.
  destruct (Nat.eqb q x) eqn:Eq.
  - destruct (Nat.eqb p x) eqn:Ep; [|reflexivity].
    apply Nat.eqb_eq in Eq, Ep. subst. tauto.
  - rewrite (IH p v d) by tauto. reflexivity.
Qed.

(* E: what the call of the partial application has bound so far. The induction needs it general; a fixed value of p
   moves past E (lookup_app_swap) because the parameters still to come are not bound in E. *)
Lemma partial_fill : forall ps slots d rest d' vs E,
  partial ps slots d = Some (rest, d') -> length rest = length vs -> NoDup ps ->
  (forall p, In p ps -> ~ In p (map fst E)) ->
  env_eq (bind_all rest vs (E ++ d')) (bind_all ps (fill slots vs) (E ++ d)).
Proof.
  induction ps as [|p ps IH]; intros slots d rest d' vs E H L N D.
  - destruct slots; [|discriminate]. injection H as <- <-. intros x. reflexivity.
  - destruct slots as [|[v|] slots]; cbn [partial] in H; [discriminate| |].
    + cbn [fill bind_all]. inversion N as [|? ? Np Nps]; subst.
      intros x. rewrite (IH slots ((p, v) :: d) rest d' vs E H L Nps) by (intros q Hq; apply D; right; exact Hq).
      apply bind_all_ext. apply lookup_app_swap. apply D. left. reflexivity.
    + destruct (partial ps slots d) as [[rest' d'']|] eqn:P; [|discriminate]. injection H as <- <-.
      destruct vs as [|v vs]; [discriminate|]. injection L as L.
      inversion N as [|? ? Np Nps].
      apply (IH slots d rest' d'' vs ((p, v) :: E) P L Nps).
      intros q Hq [Hq'|Hq']; [subst; tauto|]. apply (D q); [right; exact Hq|exact Hq'].
Qed.

Lemma fill_length : forall ps slots d rest d' (vs : list sequence),
  partial ps slots d = Some (rest, d') -> length rest = length vs -> length (fill slots vs) = length ps.
Proof.
  induction ps as [|p ps IH]; intros slots d rest d' vs P L.
  - destruct slots; [reflexivity|discriminate].
  - destruct slots as [|[v|] slots]; cbn [partial] in P; [discriminate| |].
    + cbn [fill length]. f_equal. eapply IH; eassumption.
    + destruct (partial ps slots d) as [[rest' d'']|] eqn:P'; [|discriminate]. injection P as <- <-.
      destruct vs as [|v vs]; [discriminate|]. cbn [fill length]. f_equal. injection L as L. eapply IH; eassumption.
Qed.
