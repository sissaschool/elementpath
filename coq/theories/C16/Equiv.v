(* C16 - equivalence of function items up to the representation of the captured environment, and what the congruence of
   the reference semantics for it needs: every operation eval is built from maps equivalent arguments to equivalent
   results, so one more unit of fuel preserves the congruence (eval_step). *)
From Coq Require Import ZArith List.
From EP Require Import C16.HOF C16.Model.
Import ListNotations.

Inductive orel {X Y} (R : X -> Y -> Prop) : option X -> option Y -> Prop :=
| orel_none : orel R None None
| orel_some a b : R a b -> orel R (Some a) (Some b).

(* atomic values are equal; function items have the same parameters and body and environments with equivalent lookups *)
Inductive veq : val -> val -> Prop :=
| veq_int z : veq (VInt z) (VInt z)
| veq_bool b : veq (VBool b) (VBool b)
| veq_fun ps body e1 e2 : (forall x, orel (Forall2 veq) (lookup x e1) (lookup x e2)) -> veq (VFun ps body e1) (VFun ps body e2).
Definition seq_eq : sequence -> sequence -> Prop := Forall2 veq.
Definition res_eq : option sequence -> option sequence -> Prop := orel seq_eq.
Definition env_rel (d1 d2 : env) : Prop := forall x, res_eq (lookup x d1) (lookup x d2).

Lemma veq_refl : forall v, veq v v.
Proof.
  (* val is nested through the environment of a function item (a list of sequences): the outer fix gives the
     hypothesis for the values inside, the two inner inductions walk the environment and each sequence *)
  fix IH 1. intros [z|b|ps body e]; [constructor|constructor|].
  constructor. induction e as [|[y s] r IHe]; intros x; cbn [lookup].
  - constructor.
  - destruct (Nat.eqb y x); [|apply IHe]. constructor. induction s as [|v s IHs]; constructor; [apply IH|exact IHs].
Qed.
Lemma seq_eq_refl : forall s, seq_eq s s.
Proof. induction s; constructor; [apply veq_refl|assumption]. Qed.
Lemma env_eq_rel : forall d1 d2, env_eq d1 d2 -> env_rel d1 d2.
Proof. intros d1 d2 H x. rewrite (H x). destruct (lookup x d2); constructor. apply seq_eq_refl. Qed.

(* the equations of eval, with its local definitions apply and fun_of named *)
Definition apply_n (n : nat) (f : val) (args : list sequence) : option sequence :=
  match f with
  | VFun ps body cenv => if Nat.eqb (length ps) (length args) then eval n body (bind_all ps args cenv) else None
  | _ => None
  end.
Definition fun_of_n (n : nat) (e : expr) (d : env) : option val :=
  match eval n e d with Some [VFun ps b c] => Some (VFun ps b c) | _ => None end.
Definition arith_n (op : Z -> Z -> Z) n a b d :=
  bind_o (eval n a d) (fun u => match u with [] => Some [] | _ :: _ => bind_o (eval n b d) (fun v => arith op u v) end).

Lemma eval_lit n v d : eval (S n) (ELit v) d = Some (map VInt v). Proof. reflexivity. Qed.
Lemma eval_var n x d : eval (S n) (EVar x) d = lookup x d. Proof. reflexivity. Qed.
Lemma eval_seq n a b d : eval (S n) (ESeq a b) d = bind_o (eval n a d) (fun u => bind_o (eval n b d) (fun v => Some (u ++ v))).
Proof. reflexivity. Qed.
Lemma eval_add n a b d : eval (S n) (EAdd a b) d = arith_n Z.add n a b d. Proof. reflexivity. Qed.
Lemma eval_mul n a b d : eval (S n) (EMul a b) d = arith_n Z.mul n a b d. Proof. reflexivity. Qed.
Lemma eval_sub n a b d : eval (S n) (ESub a b) d = arith_n Z.sub n a b d. Proof. reflexivity. Qed.
Lemma eval_gt n a b d : eval (S n) (EGt a b) d = bind_o (eval n a d) (fun u => bind_o (eval n b d) (fun v => gt u v)).
Proof. reflexivity. Qed.
Lemma eval_for n x r b d : eval (S n) (EFor x r b) d =
  bind_o (eval n r d) (fun vs => for_each_loop val (fun v => eval n b ((x, [v]) :: d)) vs).
Proof. reflexivity. Qed.
Lemma eval_let n x v b d : eval (S n) (ELet x v b) d = bind_o (eval n v d) (fun u => eval n b ((x, u) :: d)).
Proof. reflexivity. Qed.
Lemma eval_lam n ps body d : eval (S n) (ELam ps body) d = Some [VFun ps body d]. Proof. reflexivity. Qed.
Lemma eval_call n f args d : eval (S n) (ECall f args) d =
  bind_o (fun_of_n n f d) (fun fv => bind_o (opt_all (map (fun a => eval n a d) args)) (fun vs => apply_n n fv vs)).
Proof. reflexivity. Qed.
Definition slot_vals n (args : list (option expr)) d :=
  opt_all (map (fun a => match a with None => Some None | Some a' => option_map Some (eval n a' d) end) args).
Lemma eval_partial n f args d : eval (S n) (EPartial f args) d =
  match fun_of_n n f d with
  | Some (VFun ps body cenv) =>
      bind_o (slot_vals n args d)
        (fun vs => match partial ps vs cenv with None => None | Some (rest, cenv') => Some [VFun rest body cenv'] end)
  | _ => None
  end.
Proof. reflexivity. Qed.
Lemma eval_bang n s args d : eval (S n) (EBang s args) d =
  bind_o (eval n s d) (fun fs => bind_o (opt_all (map (fun a => eval n a d) args)) (fun vs => for_each_loop val (fun f => apply_n n f vs) fs)).
Proof. reflexivity. Qed.
Lemma eval_foreach n s f d : eval (S n) (EForEach s f) d =
  bind_o (eval n s d) (fun vs => bind_o (fun_of_n n f d) (fun fv => for_each_loop val (fun v => apply_n n fv [[v]]) vs)).
Proof. reflexivity. Qed.
Lemma eval_filter n s f d : eval (S n) (EFilter s f) d =
  bind_o (eval n s d) (fun vs => bind_o (fun_of_n n f d) (fun fv => filter_loop val (fun v => truth_of (apply_n n fv [[v]])) vs)).
Proof. reflexivity. Qed.
Lemma eval_foldl n s z f d : eval (S n) (EFoldL s z f) d =
  bind_o (eval n s d) (fun vs => bind_o (eval n z d) (fun zero => bind_o (fun_of_n n f d)
    (fun fv => fold_left_spec val (fun acc v => apply_n n fv [acc; [v]]) vs zero))).
Proof. reflexivity. Qed.
Lemma eval_foldr n s z f d : eval (S n) (EFoldR s z f) d =
  bind_o (eval n s d) (fun vs => bind_o (eval n z d) (fun zero => bind_o (fun_of_n n f d)
    (fun fv => fold_right_spec val (fun v acc => apply_n n fv [[v]; acc]) vs zero))).
Proof. reflexivity. Qed.
Lemma eval_pair n s t f d : eval (S n) (EPair s t f) d =
  bind_o (eval n s d) (fun vs => bind_o (eval n t d) (fun ws => bind_o (fun_of_n n f d)
    (fun fv => pair_spec val (fun v w => apply_n n fv [[v]; [w]]) vs ws))).
Proof. reflexivity. Qed.
Lemma eval_sort n s f d : eval (S n) (ESort s f) d =
  bind_o (eval n s d) (fun vs => bind_o (fun_of_n n f d) (fun fv =>
    bind_o (opt_all (map (fun v => option_map (fun k => (v, k)) (key_of (apply_n n fv [[v]]))) vs))
      (fun decorated => Some (map fst (sort (val * Z) snd decorated))))).
Proof. reflexivity. Qed.

Lemma bind_rel : forall {X1 X2 Y1 Y2} (R : X1 -> X2 -> Prop) (S : Y1 -> Y2 -> Prop) o1 o2 k1 k2,
  orel R o1 o2 -> (forall a b, R a b -> orel S (k1 a) (k2 b)) -> orel S (bind_o o1 k1) (bind_o o2 k2).
Proof. intros X1 X2 Y1 Y2 R S o1 o2 k1 k2 [|a b H] K; [constructor|apply K; exact H]. Qed.

Lemma env_rel_cons : forall x s1 s2 d1 d2, seq_eq s1 s2 -> env_rel d1 d2 -> env_rel ((x, s1) :: d1) ((x, s2) :: d2).
Proof. intros x s1 s2 d1 d2 Hs Hd y. cbn [lookup]. destruct (Nat.eqb x y); [constructor; exact Hs|apply Hd]. Qed.

Lemma bind_all_rel : forall ps a1 a2 d1 d2, Forall2 seq_eq a1 a2 -> env_rel d1 d2 -> env_rel (bind_all ps a1 d1) (bind_all ps a2 d2).
Proof.
  induction ps as [|p ps IH]; intros a1 a2 d1 d2 Ha Hd; [exact Hd|].
  destruct Ha as [|s1 s2 r1 r2 Hs Hr]; [exact Hd|]. apply IH; [exact Hr|]. apply env_rel_cons; assumption.
Qed.

Lemma opt_all_rel : forall {X Y} (R : X -> Y -> Prop) l1 l2, Forall2 (orel R) l1 l2 -> orel (Forall2 R) (opt_all l1) (opt_all l2).
Proof.
  intros X Y R l1 l2 H. induction H as [|o1 o2 r1 r2 Ho Hr IH]; cbn; [constructor; constructor|].
  destruct Ho as [|a b Hab]; [constructor|]. destruct IH as [|u v Huv]; constructor. constructor; assumption.
Qed.
Lemma opt_all_map_rel : forall {X1 X2 Y1 Y2} (R : X1 -> X2 -> Prop) (S : Y1 -> Y2 -> Prop) f1 f2 l1 l2,
  (forall a b, R a b -> orel S (f1 a) (f2 b)) -> Forall2 R l1 l2 -> orel (Forall2 S) (opt_all (map f1 l1)) (opt_all (map f2 l2)).
Proof. intros X1 X2 Y1 Y2 R S f1 f2 l1 l2 F H. apply opt_all_rel. induction H; constructor; auto. Qed.

(* the primitive operations look no further than the atomic values, on which veq is equality *)
Lemma arith_rel : forall op u1 u2 v1 v2, seq_eq u1 u2 -> seq_eq v1 v2 -> res_eq (arith op u1 v1) (arith op u2 v2).
Proof. intros op u1 u2 v1 v2 [|? ? ? ? [] []] [|? ? ? ? [] []]; repeat constructor. Qed.
Lemma gt_rel : forall u1 u2 v1 v2, seq_eq u1 u2 -> seq_eq v1 v2 -> res_eq (gt u1 v1) (gt u2 v2).
Proof. intros u1 u2 v1 v2 [|? ? ? ? [] []] [|? ? ? ? [] []]; repeat constructor. Qed.
Lemma key_of_rel : forall r1 r2, res_eq r1 r2 -> key_of r1 = key_of r2.
Proof. intros r1 r2 [|? ? [|? ? ? ? [] []]]; reflexivity. Qed.
Lemma truth_of_rel : forall r1 r2, res_eq r1 r2 -> truth_of r1 = truth_of r2.
Proof. intros r1 r2 [|? ? [|? ? ? ? [] []]]; reflexivity. Qed.

Lemma for_each_loop_rel : forall (f1 f2 : val -> option sequence), (forall v1 v2, veq v1 v2 -> res_eq (f1 v1) (f2 v2)) ->
  forall s1 s2, seq_eq s1 s2 -> res_eq (for_each_loop val f1 s1) (for_each_loop val f2 s2).
Proof.
  intros f1 f2 F s1 s2 H. induction H as [|x1 x2 r1 r2 Hx Hr IH]; cbn; [repeat constructor|].
  destruct (F _ _ Hx) as [|u1 u2 Hu]; [constructor|]. destruct IH as [|w1 w2 Hw]; constructor. apply Forall2_app; assumption.
Qed.
Lemma filter_loop_rel : forall (p1 p2 : val -> option bool), (forall v1 v2, veq v1 v2 -> p1 v1 = p2 v2) ->
  forall s1 s2, seq_eq s1 s2 -> res_eq (filter_loop val p1 s1) (filter_loop val p2 s2).
Proof.
  intros p1 p2 P s1 s2 H. induction H as [|x1 x2 r1 r2 Hx Hr IH]; cbn; [repeat constructor|].
  rewrite (P _ _ Hx). destruct (p2 x2) as [c|]; [|constructor]. destruct IH as [|w1 w2 Hw]; constructor.
  destruct c; [constructor; assumption|assumption].
Qed.
Lemma fold_left_spec_rel : forall (g1 g2 : sequence -> val -> option sequence),
  (forall a1 a2 v1 v2, seq_eq a1 a2 -> veq v1 v2 -> res_eq (g1 a1 v1) (g2 a2 v2)) ->
  forall s1 s2, seq_eq s1 s2 -> forall z1 z2, seq_eq z1 z2 -> res_eq (fold_left_spec val g1 s1 z1) (fold_left_spec val g2 s2 z2).
Proof.
  intros g1 g2 G s1 s2 H. induction H as [|x1 x2 r1 r2 Hx Hr IH]; intros z1 z2 Hz; [constructor; exact Hz|].
  eapply bind_rel; [apply G; eassumption|exact IH].
Qed.
Lemma fold_right_spec_rel : forall (g1 g2 : val -> sequence -> option sequence),
  (forall a1 a2 v1 v2, seq_eq a1 a2 -> veq v1 v2 -> res_eq (g1 v1 a1) (g2 v2 a2)) ->
  forall s1 s2, seq_eq s1 s2 -> forall z1 z2, seq_eq z1 z2 -> res_eq (fold_right_spec val g1 s1 z1) (fold_right_spec val g2 s2 z2).
Proof.
  intros g1 g2 G s1 s2 H. induction H as [|x1 x2 r1 r2 Hx Hr IH]; intros z1 z2 Hz; [constructor; exact Hz|].
  eapply bind_rel; [apply IH, Hz|]. intros a b Hab. apply G; assumption.
Qed.
Lemma pair_spec_rel : forall (g1 g2 : val -> val -> option sequence),
  (forall v1 v2 w1 w2, veq v1 v2 -> veq w1 w2 -> res_eq (g1 v1 w1) (g2 v2 w2)) ->
  forall s1 s2, seq_eq s1 s2 -> forall t1 t2, seq_eq t1 t2 -> res_eq (pair_spec val g1 s1 t1) (pair_spec val g2 s2 t2).
Proof.
  intros g1 g2 G s1 s2 H. induction H as [|x1 x2 r1 r2 Hx Hr IH]; intros t1 t2 [|y1 y2 q1 q2 Hy Hq]; cbn; (repeat constructor).
  eapply bind_rel; [apply G; eassumption|]. intros a b Hab.
  eapply bind_rel; [apply IH, Hq|]. intros a' b' Hab'. constructor. apply Forall2_app; assumption.
Qed.

(* the stable sort of related lists with equal keys *)
Section SortRel.
Context {A B : Type} (R : A -> B -> Prop) (ka : A -> Z) (kb : B -> Z).
Hypothesis K : forall a b, R a b -> ka a = kb b.
Lemma insert_rel : forall x1 x2 l1 l2, R x1 x2 -> Forall2 R l1 l2 -> Forall2 R (insert A ka x1 l1) (insert B kb x2 l2).
Proof.
  intros x1 x2 l1 l2 Hx H. induction H as [|y1 y2 r1 r2 Hy Hr IH]; cbn; [repeat constructor; exact Hx|].
  rewrite (K _ _ Hx), (K _ _ Hy). destruct (kb x2 <=? kb y2)%Z; repeat constructor; assumption.
Qed.
Lemma sort_rel : forall l1 l2, Forall2 R l1 l2 -> Forall2 R (sort A ka l1) (sort B kb l2).
Proof. intros l1 l2 H. induction H; [constructor|]. apply insert_rel; assumption. Qed.
End SortRel.

Lemma partial_rel : forall ps vs1 vs2 c1 c2, Forall2 (orel seq_eq) vs1 vs2 -> env_rel c1 c2 ->
  orel (fun p q => fst p = fst q /\ env_rel (snd p) (snd q)) (partial ps vs1 c1) (partial ps vs2 c2).
Proof.
  induction ps as [|p ps IH]; intros vs1 vs2 c1 c2 Hv Hc.
  - destruct Hv; constructor. split; [reflexivity|exact Hc].
  - destruct Hv as [|o1 o2 r1 r2 Ho Hr]; cbn [partial]; [constructor|].
    destruct Ho as [|s1 s2 Hs].
    + destruct (IH r1 r2 c1 c2 Hr Hc) as [|[rest1 d1] [rest2 d2] [E1 E2]]; constructor. cbn in *. split; [f_equal; exact E1|exact E2].
    + apply IH; [exact Hr|]. apply env_rel_cons; assumption.
Qed.

Lemma Forall2_len : forall {X Y} (R : X -> Y -> Prop) l1 l2, Forall2 R l1 l2 -> length l1 = length l2.
Proof. intros X Y R l1 l2 H. induction H; cbn; congruence. Qed.

(* one more unit of fuel: IH is the congruence at fuel n *)
Section Step.
Variable n : nat.
Hypothesis IH : forall e d1 d2, env_rel d1 d2 -> res_eq (eval n e d1) (eval n e d2).

Lemma apply_rel : forall f1 f2 a1 a2, veq f1 f2 -> Forall2 seq_eq a1 a2 -> res_eq (apply_n n f1 a1) (apply_n n f2 a2).
Proof.
  intros f1 f2 a1 a2 [z|b|ps body e1 e2 He] Ha; cbn [apply_n]; try constructor.
  rewrite (Forall2_len _ _ _ Ha). destruct (Nat.eqb (length ps) (length a2)); [|constructor].
  apply IH, bind_all_rel; assumption.
Qed.
Lemma fun_of_rel : forall e d1 d2, env_rel d1 d2 -> orel veq (fun_of_n n e d1) (fun_of_n n e d2).
Proof.
  intros e d1 d2 H. unfold fun_of_n. destruct (IH e d1 d2 H) as [|? ? [|? ? ? ? [] []]]; repeat constructor. assumption.
Qed.
Lemma args_rel : forall (args : list expr) d1 d2, env_rel d1 d2 ->
  orel (Forall2 seq_eq) (opt_all (map (fun a => eval n a d1) args)) (opt_all (map (fun a => eval n a d2) args)).
Proof.
  intros args d1 d2 H. apply (opt_all_map_rel eq); [intros a ? <-; apply IH, H|]. induction args; auto.
Qed.
Lemma slot_vals_rel : forall args d1 d2, env_rel d1 d2 ->
  orel (Forall2 (orel seq_eq)) (slot_vals n args d1) (slot_vals n args d2).
Proof.
  intros args d1 d2 H. apply (opt_all_map_rel eq); [|induction args; auto].
  intros [a|] ? <-; [|repeat constructor]. destruct (IH a d1 d2 H); repeat constructor. assumption.
Qed.
Lemma arith_n_rel : forall op a b d1 d2, env_rel d1 d2 -> res_eq (arith_n op n a b d1) (arith_n op n a b d2).
Proof.
  intros op a b d1 d2 H. eapply bind_rel; [apply IH, H|]. intros u1 u2 Hu.
  destruct Hu as [|x1 x2 r1 r2 Hx Hr]; [repeat constructor|].
  eapply bind_rel; [apply IH, H|]. intros v1 v2 Hv. apply arith_rel; [constructor|]; assumption.
Qed.
(* fn:sort decorates each item with its key *)
Lemma decorate_rel : forall f1 f2 s1 s2, veq f1 f2 -> seq_eq s1 s2 ->
  orel (Forall2 (fun p q => veq (fst p) (fst q) /\ snd p = snd q))
    (opt_all (map (fun v => option_map (fun k => (v, k)) (key_of (apply_n n f1 [[v]]))) s1))
    (opt_all (map (fun v => option_map (fun k => (v, k)) (key_of (apply_n n f2 [[v]]))) s2)).
Proof.
  intros f1 f2 s1 s2 Hf. apply opt_all_map_rel. intros x1 x2 Hx.
  rewrite (key_of_rel (apply_n n f1 [[x1]]) (apply_n n f2 [[x2]])) by (apply apply_rel; repeat constructor; assumption).
  destruct (key_of (apply_n n f2 [[x2]])); constructor. split; [exact Hx|reflexivity].
Qed.

Lemma eval_step : forall e d1 d2, env_rel d1 d2 -> res_eq (eval (S n) e d1) (eval (S n) e d2).
Proof.
  intros e d1 d2 H. pose proof (fun e => IH e d1 d2 H) as I. pose proof (fun e => fun_of_rel e d1 d2 H) as F.
  pose proof (fun a => args_rel a d1 d2 H) as A.
  destruct e as [v|x|a b|a b|a b|a b|a b|x r b|x v b|ps body|f args|f args|s args|s f|s f|s z f|s z f|s t f|s f].
  - rewrite !eval_lit. constructor. apply seq_eq_refl.
  - rewrite !eval_var. apply H.
  - rewrite !eval_seq. eapply bind_rel; [apply I|intros u1 u2 Hu]. eapply bind_rel; [apply I|intros v1 v2 Hv].
    constructor. apply Forall2_app; assumption.
  - rewrite !eval_add. apply arith_n_rel, H.
  - rewrite !eval_mul. apply arith_n_rel, H.
  - rewrite !eval_sub. apply arith_n_rel, H.
  - rewrite !eval_gt. eapply bind_rel; [apply I|intros u1 u2 Hu]. eapply bind_rel; [apply I|intros v1 v2 Hv].
    apply gt_rel; assumption.
  - rewrite !eval_for. eapply bind_rel; [apply I|intros u1 u2 Hu].
    apply for_each_loop_rel; [|exact Hu]. intros v1 v2 Hv. apply IH, env_rel_cons; [repeat constructor|]; assumption.
  - rewrite !eval_let. eapply bind_rel; [apply I|intros u1 u2 Hu]. apply IH, env_rel_cons; assumption.
  - rewrite !eval_lam. repeat constructor. exact H.
  - rewrite !eval_call. eapply bind_rel; [apply F|intros f1 f2 Hf]. eapply bind_rel; [apply A|intros a1 a2 Ha].
    apply apply_rel; assumption.
  - rewrite !eval_partial. destruct (F f) as [|? ? [z|b|ps body e1 e2 He]]; try constructor.
    eapply bind_rel; [apply slot_vals_rel, H|intros s1 s2 Hs].
    destruct (partial_rel ps s1 s2 e1 e2 Hs He) as [|[rest1 c1] [rest2 c2] [E1 E2]]; [constructor|].
    cbn in E1, E2. subst rest2. repeat constructor. exact E2.
  - rewrite !eval_bang. eapply bind_rel; [apply I|intros u1 u2 Hu]. eapply bind_rel; [apply A|intros a1 a2 Ha].
    apply for_each_loop_rel; [|exact Hu]. intros v1 v2 Hv. apply apply_rel; assumption.
  - rewrite !eval_foreach. eapply bind_rel; [apply I|intros u1 u2 Hu]. eapply bind_rel; [apply F|intros f1 f2 Hf].
    apply for_each_loop_rel; [|exact Hu]. intros v1 v2 Hv. apply apply_rel; repeat constructor; assumption.
  - rewrite !eval_filter. eapply bind_rel; [apply I|intros u1 u2 Hu]. eapply bind_rel; [apply F|intros f1 f2 Hf].
    apply filter_loop_rel; [|exact Hu]. intros v1 v2 Hv. apply truth_of_rel, apply_rel; repeat constructor; assumption.
  - rewrite !eval_foldl. eapply bind_rel; [apply I|intros u1 u2 Hu]. eapply bind_rel; [apply I|intros z1 z2 Hz].
    eapply bind_rel; [apply F|intros f1 f2 Hf].
    apply fold_left_spec_rel; [|exact Hu|exact Hz]. intros a1 a2 v1 v2 Ha Hv. apply apply_rel; repeat constructor; assumption.
  - rewrite !eval_foldr. eapply bind_rel; [apply I|intros u1 u2 Hu]. eapply bind_rel; [apply I|intros z1 z2 Hz].
    eapply bind_rel; [apply F|intros f1 f2 Hf].
    apply fold_right_spec_rel; [|exact Hu|exact Hz]. intros a1 a2 v1 v2 Ha Hv. apply apply_rel; repeat constructor; assumption.
  - rewrite !eval_pair. eapply bind_rel; [apply I|intros u1 u2 Hu]. eapply bind_rel; [apply I|intros w1 w2 Hw].
    eapply bind_rel; [apply F|intros f1 f2 Hf].
    apply pair_spec_rel; [|exact Hu|exact Hw]. intros v1 v2 x1 x2 Hv Hx. apply apply_rel; repeat constructor; assumption.
  - rewrite !eval_sort. eapply bind_rel; [apply I|intros u1 u2 Hu]. eapply bind_rel; [apply F|intros f1 f2 Hf].
    eapply bind_rel; [apply decorate_rel; assumption|intros l1 l2 Hl]. constructor.
    apply (sort_rel _ snd snd) in Hl; [|intros ? ? [_ E]; exact E]. induction Hl as [|? ? ? ? [Hx _]]; constructor; assumption.
Qed.
End Step.

Definition atomic (s : sequence) : bool := forallb (fun v => match v with VFun _ _ _ => false | _ => true end) s.
