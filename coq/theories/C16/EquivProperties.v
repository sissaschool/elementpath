(* C16 property theorems on partial application: "calling a partial application returns the same result as the
   equivalent direct call with the same arguments" on the reference semantics C16.Model.eval, for every program, every
   fuel and every environment. Function items are compared up to the representation of their captured environment
   (veq: same parameters, same body, environments with equivalent lookups); atomic results are equal. *)
From Coq Require Import ZArith List.
From EP Require Import C16.HOF C16.Model C16.Proofs C16.Equiv.
Import ListNotations.
Open Scope Z_scope.

(* evaluation respects the equivalence of environments: every construct of the calculus (closures, dynamic calls, partial
   application, for / let, the higher-order functions, sort) *)
Theorem C16_evaluation_respects_equivalent_bindings : forall n e d1 d2,
  env_rel d1 d2 -> res_eq (eval n e d1) (eval n e d2).
Proof. induction n as [|n IH]; intros e d1 d2 H; [constructor|]. apply eval_step; assumption. Qed.
Print Assumptions C16_evaluation_respects_equivalent_bindings.

(* f(a, ?, c) applied to (b) against f applied to (a, b, c): partial binds the fixed values where the item is created
   (slots; cenv is the closure of f), the call binds the rest; the direct call binds all parameters in order *)
Theorem C16_partial_call_is_direct_call : forall n ps body slots cenv rest cenv' vs,
  partial ps slots cenv = Some (rest, cenv') -> length rest = length vs -> NoDup ps ->
  res_eq (apply_n n (VFun rest body cenv') vs) (apply_n n (VFun ps body cenv) (fill slots vs)).
Proof.
  intros n ps body slots cenv rest cenv' vs P L N. cbn [apply_n].
  rewrite (fill_length ps slots cenv rest cenv' vs P L), L, !Nat.eqb_refl.
  apply C16_evaluation_respects_equivalent_bindings, env_eq_rel.
  apply (partial_fill ps slots cenv rest cenv' vs [] P L N). intros p _ [].
Qed.
Print Assumptions C16_partial_call_is_direct_call.

(* the expression form: eval of f(slots)(args) is that application *)
Theorem C16_partial_call_expression : forall n f slots args d ps body cenv svals rest cenv' vs,
  fun_of_n n f d = Some (VFun ps body cenv) -> slot_vals n slots d = Some svals ->
  partial ps svals cenv = Some (rest, cenv') -> opt_all (map (fun a => eval (S n) a d) args) = Some vs ->
  eval (S (S n)) (ECall (EPartial f slots) args) d = apply_n (S n) (VFun rest body cenv') vs.
Proof.
  intros n f slots args d ps body cenv svals rest cenv' vs F S P A.
  rewrite eval_call. unfold fun_of_n at 1. rewrite eval_partial, F, S. cbn [bind_o]. rewrite P, A. reflexivity.
Qed.
Print Assumptions C16_partial_call_expression.

(* results without function items are equal, not only equivalent *)
Theorem C16_equivalent_atomic_results_are_equal : forall s t, seq_eq s t -> atomic s = true -> s = t.
Proof.
  intros s t H. induction H as [|x y r q Hx Hr IH]; intros A; [reflexivity|].
  apply andb_prop in A as [A1 A2]. f_equal; [|apply IH; exact A2]. destruct Hx; [reflexivity|reflexivity|discriminate].
Qed.
Print Assumptions C16_equivalent_atomic_results_are_equal.

Theorem C16_equivalence_reflexive : forall v, veq v v.
Proof. exact veq_refl. Qed.
Print Assumptions C16_equivalence_reflexive.

(* non-vacuity: let $f := function($x, $y, $z) { $x * 100 + $y * 10 + $z } return $f(1, ?, 3)(2) against $f(1, 2, 3);
   the hypotheses of C16_partial_call_is_direct_call hold for this partial application *)
Example C16_partial_call_nonvacuous :
  let body := EAdd (EAdd (EMul (EVar 1) (ELit [100])) (EMul (EVar 2) (ELit [10]))) (EVar 3) in
  partial [1%nat; 2%nat; 3%nat] [Some [VInt 1]; None; Some [VInt 3]] [] = Some ([2%nat], [(3%nat, [VInt 3]); (1%nat, [VInt 1])]) /\
  apply_n 10 (VFun [2%nat] body [(3%nat, [VInt 3]); (1%nat, [VInt 1])]) [[VInt 2]] = Some [VInt 123] /\
  apply_n 10 (VFun [1%nat; 2%nat; 3%nat] body []) (fill [Some [VInt 1]; None; Some [VInt 3]] [[VInt 2]]) = Some [VInt 123] /\
  NoDup [1%nat; 2%nat; 3%nat].
Proof.
  repeat constructor; cbn; intuition discriminate.
Qed.
