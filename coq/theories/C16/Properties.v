From Coq Require Import ZArith List Permutation Sorted.
From EP Require Import C16.HOF C16.Model C16.Proofs.
From EP Require Gen.C16Shape.
Import ListNotations.
Open Scope Z_scope.

(* the loops of fn:fold-left / fold-right / for-each-pair are the definitional expansions of F&O, for every item type,
   every sequence and every function item (which may raise an error) *)
Theorem C16_fold_left : forall A f s z, fold_left_loop A f s z = fold_left_spec A f s z.
Proof. intros. reflexivity. (* one recursion, written with match in the loop and with bind_o in the expansion *) Qed.
Print Assumptions C16_fold_left.
Theorem C16_fold_right : forall A f s z, fold_right_loop A f s z = fold_right_spec A f s z.
Proof.
  (* when no call fails the reversed loop is the right fold; with failures both fail (possibly at different calls) *)
  intros A f. unfold fold_right_loop. induction s as [|x r IH]; intros z; cbn; auto.
  rewrite fold_left_loop_app, IH. destruct (fold_right_spec A f r z) as [w|]; cbn; auto. destruct (f x w); auto.
Qed.
Print Assumptions C16_fold_right.
Theorem C16_for_each_pair : forall A f s t, pair_loop A f s t = pair_spec A f s t.
Proof. intros. reflexivity. (* as for fold-left *) Qed.
Print Assumptions C16_for_each_pair.
(* for-each = (for $i in $seq return $f($i)), filter = $seq[$f(.)] *)
Theorem C16_for_each_filter : forall A (g : A -> list A) (p : A -> bool) s,
  for_each_loop A (fun x => Some (g x)) s = Some (flat_map g s) /\ filter_loop A (fun x => Some (p x)) s = Some (filter p s).
Proof. intros. split; [apply for_each_total|apply filter_total]. Qed.
Print Assumptions C16_for_each_filter.

(* fn:sort returns a stable, ordered permutation of its input (keys: integers; Python's sorted() is modelled by a
   stable insertion sort) *)
Theorem C16_sort_stable_ordered_permutation : forall A (key : A -> Z) l,
  Permutation (sort A key l) l /\ Sorted (key_le A key) (sort A key l) /\ (forall k, of_key A key k (sort A key l) = of_key A key k l).
Proof. intros. split; [apply sort_perm|]. split; [apply sort_sorted|]. intros k. apply sort_stable. Qed.
Print Assumptions C16_sort_stable_ordered_permutation.

(* each evaluation of a function expression yields an independent function item: every item created in a loop
   returns the binding of its own iteration *)
Theorem C16_closures_independent : forall x vs, call_copies x vs = map Some vs.
Proof. intros x vs. unfold call_copies, create_copies. rewrite map_map. reflexivity. Qed.
Print Assumptions C16_closures_independent.
(* the code before the fix (closure stored on the syntax token): every item returns the last binding *)
Theorem C16_closure_on_token_refuted : forall x v vs,
  call_on_token x (v :: vs) = repeat (Some (last (v :: vs) 0)) (S (length vs)) /\
  (exists ws, call_on_token x ws <> map Some ws).
Proof.
  intros x v vs. split; [|exists [1; 2]; vm_compute; discriminate].
  unfold call_on_token. rewrite create_on_token_spec.
  generalize (last (v :: vs) 0). intros z. cbn [length]. generalize (S (length vs)). intros n.
  induction n as [|n IH]; cbn; auto. f_equal. exact IH.
Qed.
Print Assumptions C16_closure_on_token_refuted.

(* a dynamic call of an inline function is the direct evaluation of its body with the parameters bound in the scope
   of the function expression *)
Theorem C16_call_is_direct_evaluation : forall n ps body args d vs,
  opt_all (map (fun a => eval (S n) a d) args) = Some vs -> length ps = length vs ->
  eval (S (S n)) (ECall (ELam ps body) args) d = eval (S n) body (bind_all ps vs d).
Proof.
  intros n ps body args d vs H L. remember (S n) as m.
  assert (E : eval m (ELam ps body) d = Some [VFun ps body d]) by (subst m; reflexivity).
  cbn [eval]. rewrite E, H, L, Nat.eqb_refl. reflexivity.
Qed.
Print Assumptions C16_call_is_direct_evaluation.

(* partial application: calling the partial function item f(a, ?, c) with (b) binds every parameter to the value the
   direct call f(a, b, c) binds it to - the fixed values are those evaluated where the item was created, whatever is
   bound later (E) - so the body is evaluated in an environment with the same bindings (env_eq: equal lookups) *)
Theorem C16_partial_application_binds_as_direct_call : forall ps slots d rest d' vs E,
  partial ps slots d = Some (rest, d') -> length rest = length vs -> NoDup ps ->
  (forall p, In p ps -> ~ In p (map fst E)) ->
  env_eq (bind_all rest vs (E ++ d')) (bind_all ps (fill slots vs) (E ++ d)).
Proof. exact partial_fill. Qed.
Print Assumptions C16_partial_application_binds_as_direct_call.
Example C16_partial_nonvacuous :
  partial [1%nat; 2%nat; 3%nat] [Some [VInt 7]; None; Some [VInt 9]] [] = Some ([2%nat], [(3%nat, [VInt 9]); (1%nat, [VInt 7])]) /\
  fill [Some [VInt 7]; None; Some [VInt 9]] [[VInt 8]] = [[VInt 7]; [VInt 8]; [VInt 9]].
Proof. split; reflexivity. Qed.

Example C16_nonvacuous :
  (* (for $i in (1, 2) return function() { $i }) ! .()  =  (1, 2) *)
  eval 10 (EBang (EFor 0 (ELit [1; 2]) (ELam [] (EVar 0))) []) [] = Some [VInt 1; VInt 2] /\
  (* let $mk := function($n) { function($x) { $x + $n } }, $a := $mk(1), $b := $mk(10) return ($a(0), $b(0), $a(0)) *)
  eval 10 (ELet 0 (ELam [1%nat] (ELam [2%nat] (EAdd (EVar 2) (EVar 1))))
          (ELet 3 (ECall (EVar 0) [ELit [1]]) (ELet 4 (ECall (EVar 0) [ELit [10]])
             (ESeq (ECall (EVar 3) [ELit [0]]) (ESeq (ECall (EVar 4) [ELit [0]]) (ECall (EVar 3) [ELit [0]])))))) []
    = Some [VInt 1; VInt 10; VInt 1] /\
  (* let $f := function($x, $y) { $x - $y } return ($f(?, 1)(5), $f(10, ?)(5)) *)
  eval 10 (ELet 0 (ELam [1%nat; 2%nat] (ESub (EVar 1) (EVar 2)))
          (ESeq (ECall (EPartial (EVar 0) [None; Some (ELit [1])]) [ELit [5]])
                (ECall (EPartial (EVar 0) [Some (ELit [10]); None]) [ELit [5]]))) [] = Some [VInt 4; VInt 5] /\
  (* sort((3, 1, 2, 1), (), function($x) { -$x }) and fold-right *)
  eval 10 (ESort (ELit [3; 1; 2; 1]) (ELam [0%nat] (ESub (ELit [0]) (EVar 0)))) [] = Some [VInt 3; VInt 2; VInt 1; VInt 1] /\
  eval 10 (EFoldR (ELit [1; 2; 3]) (ELit [0]) (ELam [0%nat; 1%nat] (ESub (EVar 0) (EVar 1)))) [] = Some [VInt 2].
Proof. vm_compute. repeat split. Qed.

(* the statements of /repo that the hand model mirrors are present in the source as read on this run (T-data,
   harness/shape.py -> Gen/C16Shape.v) *)
Theorem C16_source_shape : Gen.C16Shape.shape_ok = true.
Proof. reflexivity. Qed.
Print Assumptions C16_source_shape.
