(* C16 — higher-order functions: the generator loops of the implementation against the definitional expansions of
   F&O 3.1 (16.2), generic in the item type and in the function item (a Gallina function that may fail). *)
From Coq Require Import ZArith List Lia Permutation Sorted.
Import ListNotations.

Section HOF.
Variable A : Type.
Definition seq := list A.

(* ---- the loops of _xpath30_functions.py ---- *)
(* for-each: "for item in seq: result = func(item); yield from result" *)
Fixpoint for_each_loop (f : A -> option seq) (s : seq) : option seq :=
  match s with
  | [] => Some []
  | x :: r => match f x with None => None | Some u => match for_each_loop f r with None => None | Some v => Some (u ++ v) end end
  end.
(* filter: "cond = func(item); if cond: yield item" *)
Fixpoint filter_loop (f : A -> option bool) (s : seq) : option seq :=
  match s with
  | [] => Some []
  | x :: r => match f x with None => None | Some c => match filter_loop f r with None => None | Some v => Some (if c then x :: v else v) end end
  end.
(* fold-left: "result = zero; for item in seq: result = func(result, item)" *)
Fixpoint fold_left_loop (f : seq -> A -> option seq) (s : seq) (acc : seq) : option seq :=
  match s with
  | [] => Some acc
  | x :: r => match f acc x with None => None | Some acc' => fold_left_loop f r acc' end
  end.
(* fold-right: "for item in reversed(sequence): result = func(item, result)" *)
Definition fold_right_loop (f : A -> seq -> option seq) (s : seq) (zero : seq) : option seq :=
  fold_left_loop (fun acc x => f x acc) (rev s) zero.
(* for-each-pair: "for item1, item2 in zip(seq1, seq2): yield from func(item1, item2)" *)
Fixpoint pair_loop (f : A -> A -> option seq) (s t : seq) : option seq :=
  match s, t with
  | x :: r, y :: q => match f x y with None => None | Some u => match pair_loop f r q with None => None | Some v => Some (u ++ v) end end
  | _, _ => Some []
  end.

(* ---- F&O definitional expansions (errors propagate) ---- *)
Definition bind_o {X Y} (o : option X) (k : X -> option Y) : option Y := match o with None => None | Some x => k x end.
(* fn:fold-left: if empty($seq) then $zero else fold-left(tail($seq), $f($zero, head($seq)), $f) *)
Fixpoint fold_left_spec (f : seq -> A -> option seq) (s : seq) (zero : seq) : option seq :=
  match s with [] => Some zero | x :: r => bind_o (f zero x) (fun z => fold_left_spec f r z) end.
(* fn:fold-right: if empty($seq) then $zero else $f(head($seq), fold-right(tail($seq), $zero, $f)) *)
Fixpoint fold_right_spec (f : A -> seq -> option seq) (s : seq) (zero : seq) : option seq :=
  match s with [] => Some zero | x :: r => bind_o (fold_right_spec f r zero) (fun z => f x z) end.
(* fn:for-each-pair: if exists($seq1) and exists($seq2) then ($f(head1, head2), for-each-pair(tail1, tail2, $f)) else () *)
Fixpoint pair_spec (f : A -> A -> option seq) (s t : seq) : option seq :=
  match s with
  | [] => Some []
  | x :: r => match t with [] => Some [] | y :: q => bind_o (f x y) (fun u => bind_o (pair_spec f r q) (fun v => Some (u ++ v))) end
  end.

Lemma fold_left_loop_app : forall f s t z,
  fold_left_loop f (s ++ t) z = bind_o (fold_left_loop f s z) (fun z' => fold_left_loop f t z').
Proof. intros f. induction s as [|x r IH]; intros t z; cbn; [reflexivity|]. destruct (f z x); auto. Qed.

(* fn:for-each($seq, $f) = for $i in $seq return $f($i) and fn:filter = $seq[$f(.) = true()]: on total function items the loops are
   the list functions *)
Lemma for_each_total : forall (g : A -> seq) s, for_each_loop (fun x => Some (g x)) s = Some (flat_map g s).
Proof. intros g. induction s as [|x r IH]; cbn; auto. rewrite IH. reflexivity. Qed.
Lemma filter_total : forall (g : A -> bool) s, filter_loop (fun x => Some (g x)) s = Some (filter g s).
Proof. intros g. induction s as [|x r IH]; cbn; auto. rewrite IH. reflexivity. Qed.
Lemma pair_length : forall (g : A -> A -> A) s t,
  pair_loop (fun x y => Some [g x y]) s t = Some (map (fun p => g (fst p) (snd p)) (combine s t)).
Proof. intros g. induction s as [|x r IH]; intros [|y q]; cbn; auto. rewrite IH. reflexivity. Qed.

(* ---- fn:sort: Python's sorted(items, key=...) is a stable sort; model: stable insertion sort on integer keys ---- *)
Variable key : A -> Z.
Fixpoint insert (x : A) (l : seq) : seq :=
  match l with
  | [] => [x]
  | y :: r => if (key x <=? key y)%Z then x :: l else y :: insert x r
  end.
Fixpoint sort (l : seq) : seq := match l with [] => [] | x :: r => insert x (sort r) end.

Lemma insert_perm : forall x l, Permutation (insert x l) (x :: l).
Proof.
  intros x. induction l as [|y r IH]; cbn; auto. destruct (key x <=? key y)%Z; auto.
  eapply perm_trans; [apply perm_skip; exact IH|apply perm_swap].
Qed.
Lemma sort_perm : forall l, Permutation (sort l) l.
Proof. induction l as [|x r IH]; auto. eapply perm_trans; [apply insert_perm|]. apply perm_skip. exact IH. Qed.

Definition key_le (a b : A) : Prop := (key a <= key b)%Z.
Lemma insert_hd : forall a x l, key_le a x -> HdRel key_le a l -> HdRel key_le a (insert x l).
Proof. intros a x l Hx [|y r Hy]; cbn; [|destruct (key x <=? key y)%Z]; constructor; assumption. Qed.
Lemma insert_sorted : forall x l, Sorted key_le l -> Sorted key_le (insert x l).
Proof.
  intros x l S. induction S as [|y r Sr IH Hr]; cbn.
  - repeat constructor.
  - destruct (key x <=? key y)%Z eqn:E.
    + repeat constructor; auto. unfold key_le. lia.
    + constructor; [exact IH|]. apply insert_hd; [unfold key_le; lia|exact Hr].
Qed.
Lemma sort_sorted : forall l, Sorted key_le (sort l).
Proof. induction l as [|x r IH]; [constructor|]. apply insert_sorted. exact IH. Qed.

(* stability: the items of any one key keep their input order *)
Definition of_key (k : Z) (l : seq) : seq := filter (fun a => (key a =? k)%Z) l.
(* x goes behind y only when key y < key x, and then the two are not both of key k *)
Lemma insert_stable : forall k x l, of_key k (insert x l) = of_key k (x :: l).
Proof.
  intros k x. induction l as [|y r IH]; cbn; auto.
  destruct (key x <=? key y)%Z eqn:E; cbn; auto.
  unfold of_key in IH. cbn in IH. rewrite IH.
  destruct (key y =? k)%Z eqn:Ey, (key x =? k)%Z eqn:Ex; auto. lia.
Qed.
Lemma sort_stable : forall k l, of_key k (sort l) = of_key k l.
Proof.
  intros k. induction l as [|x r IH]; [reflexivity|]. cbn [sort]. rewrite insert_stable.
  unfold of_key in *. cbn. rewrite IH. reflexivity.
Qed.
End HOF.
