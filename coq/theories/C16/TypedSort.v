(* C16: fn:sort on typed atomic values (C08/Typed.v): the values must belong to one ordered class (numerics with NaN
   first, strings with untypedAtomic as strings, booleans, one ordered date / time / duration / binary family), otherwise
   XPTY0004; within a class the sort is the stable insertion sort of C16/HOF.v on an order-embedding integer key.
   The key embeds the numeric order for values whose denominator divides 10 (the values the harness uses). *)
From Coq Require Import ZArith List Bool Lia.
From EP Require Import C15.Keys C08.Typed C16.HOF.
Import ListNotations.
Open Scope Z_scope.

Definition class_of (a : av) : Z :=
  match a with
  | ANum _ _ => 1 | AStr _ _ | AUntyped _ _ => 2 | ABool _ => 3 | AOrd f _ => 10 + f | AEq _ _ => 0
  end.
Definition av_key (a : av) : Z :=
  match a with
  | ANum _ (NFin n d) => n * 10 / Zpos d
  | ANum _ NNaN => - 1000000000000
  | ANum _ NNInf => - 100000000000
  | ANum _ NPInf => 100000000000
  | AStr _ s | AUntyped s _ => s
  | ABool b => if b then 1 else 0
  | AOrd _ v | AEq _ v => v
  end.
(* one ordered class (a single value needs no comparison) *)
Definition sortable (l : list av) : bool :=
  match l with
  | [] | [_] => true
  | x :: r => negb (class_of x =? 0) && forallb (fun y => class_of y =? class_of x) r
  end.
Definition sort_typed (l : list av) : option (list av) :=
  if sortable l then Some (sort av av_key l) else None.

(* the integer key is an order embedding on the numeric values with a denominator dividing 10 *)
Definition den10 (v : nval) : bool := match v with NFin _ d => (10 mod Zpos d =? 0) | _ => true end.
Lemma div10 : forall d, (10 mod Zpos d =? 0) = true -> Zpos d = 1 \/ Zpos d = 2 \/ Zpos d = 5 \/ Zpos d = 10.
Proof.
  intros d H. apply Z.eqb_eq in H.
  assert (L : Zpos d <= 10).
  { apply Z.mod_divide in H; [|lia]. apply Z.divide_pos_le in H; lia. }
  assert (C : Zpos d = 1 \/ Zpos d = 2 \/ Zpos d = 3 \/ Zpos d = 4 \/ Zpos d = 5 \/ Zpos d = 6 \/ Zpos d = 7 \/
              Zpos d = 8 \/ Zpos d = 9 \/ Zpos d = 10) by lia.
  destruct C as [C|[C|[C|[C|[C|[C|[C|[C|[C|C]]]]]]]]]; rewrite C in H; try discriminate; tauto.
Qed.
(* both fractions scaled to a common multiple k of the denominators *)
Lemma scaled_order : forall k d1 d2 n1 n2, 0 < d1 -> 0 < d2 -> 0 < k -> (d1 | k) -> (d2 | k) ->
  (n1 * d2 < n2 * d1 <-> n1 * k / d1 < n2 * k / d2).
Proof.
  intros k d1 d2 n1 n2 H1 H2 K [c1 E1] [c2 E2].
  replace (n1 * k / d1) with (n1 * c1) by (rewrite E1, Z.mul_assoc, Z.div_mul; lia).
  replace (n2 * k / d2) with (n2 * c2) by (rewrite E2, Z.mul_assoc, Z.div_mul; lia).
  assert (C1 : 0 < c1) by (apply (Z.mul_pos_cancel_r c1 d1 H1); lia).
  assert (C2 : 0 < c2) by (apply (Z.mul_pos_cancel_r c2 d2 H2); lia).
  rewrite (Z.mul_lt_mono_pos_r (c1 * c2)) by (apply Z.mul_pos_pos; assumption).
  replace (n1 * d2 * (c1 * c2)) with (n1 * c1 * k) by (rewrite E2; ring).
  replace (n2 * d1 * (c1 * c2)) with (n2 * c2 * k) by (rewrite E1; ring).
  symmetry. apply Z.mul_lt_mono_pos_r, K.
Qed.
Lemma key_embeds_numeric_order : forall t u n1 d1 n2 d2, den10 (NFin n1 d1) = true -> den10 (NFin n2 d2) = true ->
  nval_lt (NFin n1 d1) (NFin n2 d2) = (av_key (ANum t (NFin n1 d1)) <? av_key (ANum u (NFin n2 d2))).
Proof.
  intros t u n1 d1 n2 d2 A B. cbn [av_key nval_lt]. apply eq_iff_eq_true. rewrite !Z.ltb_lt.
  apply Z.eqb_eq, Z.mod_divide in A; [|discriminate]. apply Z.eqb_eq, Z.mod_divide in B; [|discriminate].
  apply scaled_order; [reflexivity..|exact A|exact B].
Qed.

(* correspondence: [[-9]] = XPTY0004, otherwise the positions (0-based, in the input) of the sorted items *)
Fixpoint number_from (k : Z) (l : list av) : list (Z * av) :=
  match l with [] => [] | x :: r => (k, x) :: number_from (k + 1) r end.
Definition run_sort (l : list av) : list Z :=
  if sortable l then map fst (sort (Z * av) (fun p => av_key (snd p)) (number_from 0 l)) else [-9].
