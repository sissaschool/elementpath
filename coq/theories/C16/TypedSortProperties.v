From Coq Require Import ZArith List Bool Sorted Permutation.
From EP Require Import C15.Keys C08.Typed C16.HOF C16.TypedSort C16.Properties.
Import ListNotations.
Open Scope Z_scope.

(* when the values belong to one ordered class the result is a stable, ordered permutation of the input *)
Theorem C16_typed_sort : forall l r, sort_typed l = Some r ->
  Permutation r l /\ Sorted (key_le av av_key) r /\ (forall k, of_key av av_key k r = of_key av av_key k l).
Proof.
  intros l r H. unfold sort_typed in H. destruct (sortable l); [|discriminate]. injection H as <-.
  apply C16_sort_stable_ordered_permutation.
Qed.
Print Assumptions C16_typed_sort.
Lemma forallb_false : forall {A} (f : A -> bool) l, forallb f l = false <-> exists z, In z l /\ f z = false.
Proof.
  intros A f l. split.
  - induction l as [|a l IH]; cbn; [discriminate|]. destruct (f a) eqn:E.
    + intros H. destruct (IH H) as (z & I & Hz). exists z. auto.
    + intros _. exists a. auto.
  - intros (z & I & Hz). apply not_true_is_false. intros F. rewrite forallb_forall in F. rewrite (F z I) in Hz. discriminate.
Qed.
(* XPTY0004 exactly when two values of different classes, or of a class without an order, have to be compared *)
Theorem C16_typed_sort_error : forall x y r,
  sort_typed (x :: y :: r) = None <->
  (class_of x = 0 \/ exists z, In z (y :: r) /\ class_of z <> class_of x).
Proof.
  intros x y r. transitivity (sortable (x :: y :: r) = false).
  - unfold sort_typed. destruct (sortable (x :: y :: r)); split; congruence.
  - cbn [sortable]. rewrite andb_false_iff, negb_false_iff, Z.eqb_eq, forallb_false.
    setoid_rewrite Z.eqb_neq. reflexivity.
Qed.
Print Assumptions C16_typed_sort_error.
(* the integer key orders numeric values as their exact rational values (denominators dividing 10), NaN first *)
Theorem C16_typed_key_order : forall t u n1 d1 n2 d2, den10 (NFin n1 d1) = true -> den10 (NFin n2 d2) = true ->
  nval_lt (NFin n1 d1) (NFin n2 d2) = (av_key (ANum t (NFin n1 d1)) <? av_key (ANum u (NFin n2 d2))).
Proof. exact key_embeds_numeric_order. Qed.
Print Assumptions C16_typed_key_order.
Example C16_typed_sort_nonvacuous :
  sort_typed [ANum TInteger (NFin 3 1); ANum TDouble NNaN; ANum TDecimal (NFin 15 10); ANum TFloat (NFin 1 2)] =
    Some [ANum TDouble NNaN; ANum TFloat (NFin 1 2); ANum TDecimal (NFin 15 10); ANum TInteger (NFin 3 1)] /\
  sort_typed [ABool true; ABool false] = Some [ABool false; ABool true] /\
  sort_typed [AUntyped 5 None; AStr false 4] = Some [AStr false 4; AUntyped 5 None] /\
  sort_typed [ANum TInteger (NFin 1 1); ABool true] = None /\ sort_typed [AEq 4 2001; AEq 4 2000] = None.
Proof. vm_compute. repeat split. Qed.
