From Coq Require Import ZArith List Lia ZifyBool.
From EP Require Import C08.Model.
Import ListNotations.
Open Scope Z_scope.

(* the enumerate counters: the loop at counter pos looking for position pos + k acts at index k *)
Lemma ib_loop_inserted : forall l pos at_pos ins, ib_loop l pos at_pos ins true = l.
Proof. induction l as [|x r IH]; intros; cbn; [|rewrite IH]; reflexivity. Qed.
Lemma ib_loop_at : forall k l pos at_pos ins, at_pos = pos + Z.of_nat k ->
  ib_loop l pos at_pos ins false = firstn k l ++ ins ++ skipn k l.
Proof.
  induction k as [|k IH]; intros [|x r] pos at_pos ins E; cbn [ib_loop firstn skipn app negb andb]; rewrite ?app_nil_r; auto.
  - replace (pos =? at_pos) with true by lia. rewrite ib_loop_inserted. reflexivity.
  - replace (pos =? at_pos) with false by lia. rewrite (IH r (pos + 1)) by lia. reflexivity.
Qed.

Lemma remove_loop_past : forall l p q, q < p -> remove_loop l p q = l.
Proof. induction l as [|z l IH]; intros p q H; cbn; auto. destruct (p =? q) eqn:E; [lia|]. f_equal. apply IH. lia. Qed.
Lemma remove_loop_at : forall k l pos p, p = pos + Z.of_nat k -> remove_loop l pos p = firstn k l ++ skipn (S k) l.
Proof.
  induction k as [|k IH]; intros [|x r] pos p E; cbn [remove_loop firstn skipn app]; auto.
  - replace (pos =? p) with true by lia. apply remove_loop_past. lia.
  - replace (pos =? p) with false by lia. rewrite (IH r (pos + 1)) by lia. reflexivity.
Qed.

Lemma index_loop_nth : forall l pos v p,
  In p (index_loop l pos v) <-> exists k, nth_error l k = Some v /\ p = pos + Z.of_nat k.
Proof.
  induction l as [|x r IH]; intros pos v p; cbn [index_loop].
  - split; [intros []|intros ([|k] & H & _); discriminate].
  - assert (T : In p (index_loop r (pos + 1) v) <->
                exists k, nth_error (x :: r) (S k) = Some v /\ p = pos + Z.of_nat (S k)).
    { rewrite IH. split; intros (k & H & ->); exists k; (split; [exact H|lia]). }
    destruct (Z.eqb_spec x v) as [->|N]; cbn [In]; rewrite T; split.
    + intros [<-|(k & H)]; [exists O; split; [reflexivity|cbn; lia]|eauto].
    + intros ([|k] & H & ->); [left; cbn; lia|eauto].
    + intros (k & H); eauto.
    + intros ([|k] & H & E); [cbn in H; congruence|eauto].
Qed.
Lemma index_loop_spec : forall l pos v p, In p (index_loop l pos v) <-> pos <= p /\ nth_error l (Z.to_nat (p - pos)) = Some v.
Proof.
  intros. rewrite index_loop_nth. split.
  - intros (k & H & ->). split; [lia|]. replace (Z.to_nat (pos + Z.of_nat k - pos)) with k by lia. exact H.
  - intros (H1 & H2). exists (Z.to_nat (p - pos)). split; [exact H2|lia].
Qed.

Lemma existsb_eqb_in : forall y l, existsb (Z.eqb y) l = true <-> In y l.
Proof.
  intros y l. rewrite existsb_exists. split.
  - intros (z & H & E). apply Z.eqb_eq in E. subst z. exact H.
  - intros H. exists y. split; [exact H|apply Z.eqb_refl].
Qed.
Lemma dv_loop_in : forall l results x, In x (dv_loop l results) <-> In x l /\ ~ In x results.
Proof.
  induction l as [|y r IH]; intros results x; cbn [dv_loop]; [cbn; tauto|].
  destruct (existsb (Z.eqb y) results) eqn:E.
  - apply existsb_eqb_in in E. rewrite IH. cbn [In]. destruct (Z.eq_dec y x) as [->|N]; tauto.
  - assert (Hy : ~ In y results) by (rewrite <- existsb_eqb_in; congruence).
    cbn [In]. rewrite IH, in_app_iff. cbn [In]. destruct (Z.eq_dec y x) as [->|N]; tauto.
Qed.
Lemma dv_loop_nodup : forall l results, NoDup (dv_loop l results).
Proof.
  induction l as [|y r IH]; intros results; cbn [dv_loop]; [constructor|].
  destruct (existsb (Z.eqb y) results); auto. constructor; auto.
  rewrite dv_loop_in. rewrite in_app_iff. cbn. tauto.
Qed.

(* one range of a for is one flat_map; the ranges behind it are evaluated under the binding of its variable *)
Lemma for_cons : forall r rest (body : items -> items) env,
  flat_map body (product (r :: rest) env) = flat_map (fun x => flat_map (fun t => body (x :: t)) (product rest (env ++ [x]))) (r env).
Proof.
  intros. cbn [product]. induction (r env) as [|x xs IH]; cbn [flat_map]; [reflexivity|].
  rewrite flat_map_app. f_equal; [|exact IH]. rewrite !flat_map_concat_map, map_map. reflexivity.
Qed.
Lemma for_two : forall A g body,
  for_expr [fun _ => A; g] body = flat_map (fun x => flat_map (fun y => body [x; y]) (g [x])) A.
Proof.
  intros A g body. unfold for_expr. rewrite for_cons. apply flat_map_ext. intros x.
  rewrite for_cons. apply flat_map_ext. intros y. apply app_nil_r.
Qed.

Lemma fold_add_acc : forall l a, fold_left Z.add l a = a + fold_left Z.add l 0.
Proof. induction l as [|x r IH]; intros a; cbn; [lia|]. rewrite IH, (IH x). lia. Qed.

(* a left fold that keeps the lesser of two: on a set P closed under pick, on which le is a preorder, the result is a
   least one of the values folded (P is there for the typed fn:min, whose order is transitive on finite values only) *)
Lemma fold_least : forall (A : Type) (P : A -> Prop) (le : A -> A -> Prop) (pick : A -> A -> A),
  (forall a, P a -> le a a) -> (forall a b c, P a -> P b -> P c -> le a b -> le b c -> le a c) ->
  (forall a b, P a -> P b -> (pick a b = a \/ pick a b = b) /\ le (pick a b) a /\ le (pick a b) b) ->
  forall r v, P v -> (forall x, In x r -> P x) ->
  P (fold_left pick r v) /\ In (fold_left pick r v) (v :: r) /\ forall x, In x (v :: r) -> le (fold_left pick r v) x.
Proof.
  intros A P le pick Hrefl Htrans Hpick. induction r as [|y r IH]; intros v V R; cbn [fold_left].
  - split; [exact V|]. split; [left; reflexivity|]. intros x [<-|[]]. apply Hrefl, V.
  - assert (Y : P y) by (apply R; left; reflexivity).
    destruct (Hpick v y V Y) as (E & L1 & L2).
    assert (PV : P (pick v y)) by (destruct E as [->| ->]; assumption).
    destruct (IH (pick v y) PV (fun x H => R x (or_intror H))) as (M1 & M2 & M3).
    assert (M0 := M3 _ (or_introl eq_refl)).
    split; [exact M1|]. split.
    + destruct M2 as [<-|M2]; [|right; right; exact M2].
      destruct E as [->| ->]; [left; reflexivity|right; left; reflexivity].
    + intros x [<-|[<-|Hx]].
      * exact (Htrans _ _ _ M1 PV V M0 L1).
      * exact (Htrans _ _ _ M1 PV Y M0 L2).
      * apply M3. right. exact Hx.
Qed.

(* the spec and the code both put the first item, then each further item behind a separator *)
Lemma string_join_cons : forall sep r s, string_join (s :: r) sep = s ++ flat_map (app sep) r.
Proof.
  intros sep. induction r as [|t r IH]; intros s; cbn [flat_map]; [symmetry; apply app_nil_r|].
  rewrite <- app_assoc, <- IH. reflexivity.
Qed.
Lemma fold_join : forall (sep : str) r s, fold_left (fun acc t => acc ++ sep ++ t) r s = s ++ flat_map (app sep) r.
Proof.
  intros sep. induction r as [|t r IH]; intros s; cbn [fold_left flat_map]; [symmetry; apply app_nil_r|].
  rewrite IH, <- app_assoc. reflexivity.
Qed.
