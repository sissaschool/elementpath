From Coq Require Import ZArith List Bool Lia ZifyBool Sorted.
From EP Require Import C15.Keys C15.KeysProofs C08.Typed.
Import ListNotations.
Open Scope Z_scope.

(* the same-value relation is op:same-key (C15) on the key a value stands for.  The ordered and the equality-only
   families are numbered independently: the even / odd family codes keep an AOrd apart from every AEq *)
Definition akey (a : av) : key :=
  match a with
  | ANum t v => KN t v
  | AStr _ s | AUntyped s _ => KS FString s
  | ABool b => KBool b
  | AOrd f v => KOther (2 * f) v
  | AEq f v => KOther (2 * f + 1) v
  end.
Lemma dv_same_num : forall t1 v1 t2 v2, dv_same (ANum t1 v1) (ANum t2 v2) = nval_eq v1 v2.
Proof. intros t1 [n1 d1| | |] t2 [n2 d2| | |]; cbn; auto. destruct (n1 * Z.pos d2 =? n2 * Z.pos d1); reflexivity. Qed.
Lemma dv_same_akey : forall a b, dv_same a b = same_key_spec (akey a) (akey b).
Proof.
  assert (EE : forall f g, (2 * f =? 2 * g) = (f =? g)) by (intros; lia).
  assert (OO : forall f g, (2 * f + 1 =? 2 * g + 1) = (f =? g)) by (intros; lia).
  assert (EO : forall f g, (2 * f =? 2 * g + 1) = false) by (intros; lia).
  assert (OE : forall f g, (2 * f + 1 =? 2 * g) = false) by (intros; lia).
  intros [t v|u s|s o|b|f x|f x] [t' v'|u' s'|s' o'|b'|g y|g y]; try apply dv_same_num.
  all: unfold dv_same; cbn [is_nan av_eq str_rank akey same_key_spec andb]; rewrite ?andb_false_r, ?EE, ?OO, ?EO, ?OE.
  (* values of two kinds: both sides have computed to false *)
  all: try reflexivity.
  1-4: destruct (s =? s'); reflexivity.
  - destruct b, b'; reflexivity.
  - destruct (f =? g), (x =? y); reflexivity.
  - destruct (f =? g), (x =? y); reflexivity.
Qed.
Lemma dv_same_refl : forall a, dv_same a a = true.
Proof. intros a. rewrite dv_same_akey. apply spec_refl. Qed.
Lemma dv_same_sym : forall a b, dv_same a b = dv_same b a.
Proof. intros a b. rewrite !dv_same_akey. apply spec_sym. Qed.
Lemma num_eq_trans : forall a b c, num_eq a b = true -> num_eq b c = true -> num_eq a c = true.
Proof.
  intros [n1 d1| | |] [n2 d2| | |] [n3 d3| | |] H1 H2; try discriminate; auto.
  exact (nval_eq_trans (NFin n1 d1) (NFin n2 d2) (NFin n3 d3) H1 H2).
Qed.

Lemma dv_loop_incl : forall l seen x, In x (dv_loop l seen) -> In x l.
Proof.
  induction l as [|y r IH]; intros seen x H; cbn in H; [destruct H|].
  destruct (existsb (dv_same y) seen).
  - right. apply (IH seen). exact H.
  - destruct H as [<-|H]; [left; reflexivity|right; apply (IH (y :: seen)); exact H].
Qed.
Lemma dv_loop_fresh : forall l seen x, In x (dv_loop l seen) -> forall s, In s seen -> dv_same x s = false.
Proof.
  induction l as [|y r IH]; intros seen x H s Hs; cbn in H; [destruct H|].
  destruct (existsb (dv_same y) seen) eqn:E.
  - apply (IH seen x H s Hs).
  - destruct H as [<-|H].
    + destruct (dv_same y s) eqn:D; auto.
      assert (existsb (dv_same y) seen = true) by (apply existsb_exists; exists s; auto). congruence.
    + apply (IH (y :: seen) x H s). right. exact Hs.
Qed.
(* pairwise different: in the result no later value is the same as an earlier one *)
Inductive pairwise_fresh : list av -> Prop :=
| pf_nil : pairwise_fresh []
| pf_cons : forall x r, (forall y, In y r -> dv_same y x = false) -> pairwise_fresh r -> pairwise_fresh (x :: r).
Lemma dv_loop_pairwise : forall l seen, pairwise_fresh (dv_loop l seen).
Proof.
  induction l as [|y r IH]; intros seen; cbn; [constructor|].
  destruct (existsb (dv_same y) seen); [apply IH|].
  constructor; [|apply IH].
  intros z Hz. apply (dv_loop_fresh r (y :: seen) z Hz y). left. reflexivity.
Qed.
(* every input value has a representative among the values seen before and the values kept *)
Lemma dv_loop_covers : forall l seen x, In x l -> exists k, In k (seen ++ dv_loop l seen) /\ dv_same x k = true.
Proof.
  induction l as [|y r IH]; intros seen x H; [destruct H|].
  cbn [dv_loop]. destruct H as [<-|H]; destruct (existsb (dv_same y) seen) eqn:E.
  - apply existsb_exists in E. destruct E as (s & Hs & D). exists s. rewrite in_app_iff. auto.
  - exists y. rewrite in_app_iff, dv_same_refl. cbn. auto.
  - apply IH, H.
  - destruct (IH (y :: seen) x H) as (k & Hk & D). exists k.
    rewrite in_app_iff in *. cbn [In] in *. tauto.
Qed.

Lemma index_loop_spec : forall l pos v p,
  In p (index_loop l pos v) <-> exists k, nth_error l k = Some (nth k l v) /\ p = pos + Z.of_nat k /\ av_eq (nth k l v) v = Some true.
Proof.
  induction l as [|x r IH]; intros pos v p; cbn.
  - split; [intros []|intros (k & H & _)]. destruct k; discriminate.
  - rewrite in_app_iff, IH. split.
    + intros [H|(k & H1 & H2 & H3)].
      * destruct (av_eq x v) as [[|]|] eqn:E; cbn in H; try tauto. destruct H as [<-|[]].
        exists O. cbn. split; [reflexivity|]. split; [lia|exact E].
      * exists (S k). cbn. split; [exact H1|]. split; [lia|exact H3].
    + intros (k & H1 & H2 & H3). destruct k as [|k].
      * left. rewrite H3. left. lia.
      * right. exists k. cbn in H1, H3. split; [exact H1|]. split; [lia|exact H3].
Qed.
Lemma index_loop_sorted : forall l pos v, StronglySorted Z.lt (index_loop l pos v).
Proof.
  induction l as [|x r IH]; intros pos v; cbn; [constructor|].
  destruct (av_eq x v) as [[|]|]; cbn; auto.
  constructor; [apply IH|]. apply Forall_forall. intros q Hq.
  apply index_loop_spec in Hq. destruct Hq as (k & _ & -> & _). lia.
Qed.

(* the order of fn:min / fn:max; NaN is both below and above every value, so it is a preorder on finite values only *)
Definition nfin (v : nval) : bool := match v with NFin _ _ => true | _ => false end.
Definition nle (a b : nval) : bool := negb (nval_lt b a).
Lemma nfin_inv : forall a, nfin a = true -> exists n d, a = NFin n d.
Proof. intros [n d| | |] H; try discriminate. eauto. Qed.
Lemma nle_fin : forall n1 d1 n2 d2, nle (NFin n1 d1) (NFin n2 d2) = true <-> n1 * Z.pos d2 <= n2 * Z.pos d1.
Proof. intros. unfold nle, nval_lt. rewrite negb_true_iff. apply Z.ltb_ge. Qed.
Lemma nle_refl : forall a, nfin a = true -> nle a a = true.
Proof. intros [n d| | |] H; try discriminate. apply nle_fin. lia. Qed.
Lemma nle_trans : forall a b c, nfin a = true -> nfin b = true -> nfin c = true -> nle a b = true -> nle b c = true -> nle a c = true.
Proof.
  intros a b c A B C.
  destruct (nfin_inv a A) as (n1 & d1 & ->), (nfin_inv b B) as (n2 & d2 & ->), (nfin_inv c C) as (n3 & d3 & ->).
  rewrite !nle_fin. nia.
Qed.
Lemma nle_total : forall a b, nfin a = true -> nfin b = true -> nle a b = true \/ nle b a = true.
Proof. intros [n1 d1| | |] [n2 d2| | |] A B; try discriminate. rewrite !nle_fin. lia. Qed.
Lemma pick_n_fin : forall mx a b, nfin a = true -> nfin b = true -> nfin (pick_n mx a b) = true.
Proof. intros mx a b A B. unfold pick_n. destruct mx; [destruct (nval_lt a b)|destruct (nval_lt b a)]; auto. Qed.
Lemma pick_min_le : forall v y, nfin v = true -> nfin y = true ->
  (pick_n false v y = v \/ pick_n false v y = y) /\ nle (pick_n false v y) v = true /\ nle (pick_n false v y) y = true.
Proof.
  intros [n1 d1| | |] [n2 d2| | |] V Y; try discriminate. unfold pick_n.
  destruct (nval_lt (NFin n2 d2) (NFin n1 d1)) eqn:E; cbn in E; rewrite !nle_fin.
  - split; [auto|lia].
  - split; [auto|lia].
Qed.

(* nval_add is commutative and associative up to equality, not only up to nval_eq, and on NaN and the infinities too:
   the two sides are the same fraction, unreduced *)
Lemma nval_add_comm : forall a b, nval_add a b = nval_add b a.
Proof.
  intros [n1 d1| | |] [n2 d2| | |]; try reflexivity.
  cbn [nval_add]. rewrite Z.add_comm, Pos.mul_comm. reflexivity.
Qed.
Lemma nval_add_assoc : forall a b c, nval_add (nval_add a b) c = nval_add a (nval_add b c).
Proof.
  intros [n1 d1| | |] [n2 d2| | |] [n3 d3| | |]; try reflexivity.
  cbn [nval_add]. rewrite Pos.mul_assoc, !Pos2Z.inj_mul. f_equal. ring.
Qed.
Lemma fold_add_shift : forall l a b, fold_left nval_add l (nval_add a b) = nval_add a (fold_left nval_add l b).
Proof. induction l as [|y r IH]; intros a b; cbn [fold_left]; [|rewrite nval_add_assoc, IH]; reflexivity. Qed.
Lemma nsum_cons : forall x l, nsum (x :: l) = nval_add x (nsum l).
Proof. intros x l. unfold nsum. cbn [fold_left]. rewrite nval_add_comm. apply fold_add_shift. Qed.

Lemma nval_add_fin : forall a b, nfin a = true -> nfin b = true -> nfin (nval_add a b) = true.
Proof. intros [n1 d1| | |] [n2 d2| | |] A B; try discriminate; reflexivity. Qed.
Lemma fold_add_fin : forall l u, forallb nfin l = true -> nfin u = true -> nfin (fold_left nval_add l u) = true.
Proof.
  induction l as [|y r IH]; intros u L U; cbn; [exact U|]. cbn in L. apply andb_true_iff in L. destruct L as (Y & L).
  apply IH; [exact L|apply nval_add_fin; auto].
Qed.
Lemma nval_add_congr_r : forall a u v, nfin a = true -> nfin u = true -> nfin v = true -> nval_eq u v = true ->
  nval_eq (nval_add a u) (nval_add a v) = true.
Proof.
  intros a u v A U V E.
  destruct (nfin_inv a A) as (n1 & d1 & ->), (nfin_inv u U) as (n2 & d2 & ->), (nfin_inv v V) as (n3 & d3 & ->).
  cbn in *. nia.
Qed.

(* numeric promotion: the type of a numeric aggregate is the greatest of the operand types *)
Lemma tpromote_rank : forall a b, trank (tpromote a b) = Z.max (trank a) (trank b).
Proof. intros a b. unfold tpromote. destruct (trank a <? trank b) eqn:E; lia. Qed.
(* the step of the fold in num_type; it never lowers the type *)
Definition promote_item (t : ntype) (a : av) : ntype := match a with ANum u _ => tpromote t u | _ => t end.
Lemma promote_item_ge : forall t a, trank t <= trank (promote_item t a).
Proof. intros t [u v| | | | |]; cbn; rewrite ?tpromote_rank; lia. Qed.
Lemma fold_promote_rank : forall l t, trank t <= trank (fold_left promote_item l t) /\
  forall u v, In (ANum u v) l -> trank u <= trank (fold_left promote_item l t).
Proof.
  induction l as [|a r IH]; intros t; cbn [fold_left].
  - split; [lia|intros u v []].
  - destruct (IH (promote_item t a)) as (A & B). pose proof (promote_item_ge t a) as G. split; [lia|].
    intros u v [->|H]; [|eauto]. cbn [promote_item] in *. rewrite tpromote_rank in A. lia.
Qed.
