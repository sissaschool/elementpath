From Coq Require Import ZArith List Bool Sorted.
From EP Require C08.Proofs.
From EP Require Import C15.Keys C08.Typed C08.TypedProofs.
Import ListNotations.
Open Scope Z_scope.

(* fn:distinct-values on typed values: every result is an input value, no two results are the same value (eq after the
   untypedAtomic -> string conversion, NaN the same as NaN, values that are not comparable distinct), and every input
   value is the same as some result *)
Theorem C08_typed_distinct_values : forall l,
  (forall x, In x (distinct_values l) -> In x l) /\ pairwise_fresh (distinct_values l) /\
  (forall x, In x l -> exists k, In k (distinct_values l) /\ (k = x \/ dv_same x k = true)).
Proof.
  intros l. unfold distinct_values. split; [intros x; apply dv_loop_incl|]. split; [apply dv_loop_pairwise|].
  intros x H. destruct (dv_loop_covers l [] x H) as (k & Hk & D). exists k. auto.
Qed.
Print Assumptions C08_typed_distinct_values.
Theorem C08_typed_same_value_relation : forall a b, dv_same a a = true /\ dv_same a b = dv_same b a.
Proof. intros a b. split; [apply dv_same_refl|apply dv_same_sym]. Qed.
Print Assumptions C08_typed_same_value_relation.
(* fn:index-of on typed values: exactly the positions whose item is eq to the search value, in ascending order *)
Theorem C08_typed_index_of : forall l v,
  (forall p, In p (index_of l v) <->
             exists k, nth_error l k = Some (nth k l v) /\ p = 1 + Z.of_nat k /\ av_eq (nth k l v) v = Some true) /\
  StronglySorted Z.lt (index_of l v).
Proof. intros l v. split; [intros p; apply index_loop_spec|apply (index_loop_sorted l 1 v)]. Qed.
Print Assumptions C08_typed_index_of.
(* fn:min over finite numeric values: one of the values, not greater than any of them (max is symmetric: pick_n true) *)
Theorem C08_typed_min_finite : forall r v, nfin v = true -> forallb nfin r = true ->
  nfin (fold_left (pick_n false) r v) = true /\ In (fold_left (pick_n false) r v) (v :: r) /\
  forall x, In x (v :: r) -> nle (fold_left (pick_n false) r v) x = true.
Proof.
  intros r v V R. rewrite forallb_forall in R.
  exact (C08.Proofs.fold_least nval (fun a => nfin a = true) (fun a b => nle a b = true) (pick_n false)
           nle_refl nle_trans pick_min_le r v V R).
Qed.
Print Assumptions C08_typed_min_finite.
(* fn:sum over finite numeric values is the exact rational sum: adding one more value in front adds it *)
Theorem C08_typed_sum_finite : forall x l, nfin x = true -> forallb nfin l = true ->
  nval_eq (nsum (x :: l)) (nval_add x (nsum l)) = true.
Proof.
  intros x l _ _. rewrite nsum_cons. apply KeysProofs.nval_eq_refl.
Qed.
Print Assumptions C08_typed_sum_finite.
(* fn:deep-equal on sequences of atomic values: reflexive, symmetric, same length, pairwise the same value *)
Theorem C08_typed_deep_equal : forall l1 l2,
  deep_equal l1 l1 = true /\ deep_equal l1 l2 = deep_equal l2 l1 /\
  (deep_equal l1 l2 = true -> length l1 = length l2 /\
     forall k x y, nth_error l1 k = Some x -> nth_error l2 k = Some y -> dv_same x y = true).
Proof.
  intros l1 l2. split; [|split; [|intros H; split]].
  - induction l1 as [|x r IH]; cbn; auto. rewrite dv_same_refl. exact IH.
  - revert l2. induction l1 as [|x r IH]; intros [|y r2]; cbn; auto. rewrite dv_same_sym, IH. reflexivity.
  - revert l2 H. induction l1 as [|x r IH]; intros [|y r2] H; cbn in *; try discriminate; auto.
    apply andb_true_iff in H. rewrite (IH r2 (proj2 H)). reflexivity.
  - revert l2 H. induction l1 as [|a r IH]; intros [|b r2] H k x y H1 H2; cbn in H; try discriminate.
    + destruct k; discriminate.
    + apply andb_true_iff in H. destruct H as (Hab & H). destruct k as [|k]; cbn in H1, H2.
      * injection H1 as <-. injection H2 as <-. exact Hab.
      * apply (IH r2 H k x y H1 H2).
Qed.
Print Assumptions C08_typed_deep_equal.
(* the same-value relation is transitive as well: distinct-values keeps exactly one value of every class *)
Theorem C08_typed_same_value_transitive : forall a b c, dv_same a b = true -> dv_same b c = true -> dv_same a c = true.
Proof. intros a b c. rewrite !dv_same_akey. apply KeysProofs.spec_trans. Qed.
Print Assumptions C08_typed_same_value_transitive.
(* numeric promotion in min / max / sum / avg: the result type is at least the type of every numeric item *)
Theorem C08_typed_promotion : forall l u v, In (ANum u v) l -> trank u <= trank (num_type l).
Proof. intros l u v H. apply (proj2 (fold_promote_rank l TInteger) u v H). Qed.
Print Assumptions C08_typed_promotion.
Example C08_typed_nonvacuous :
  distinct_values [ANum TInteger (NFin 1 1); ANum TDouble (NFin 2 2); ABool true; AUntyped 4 None; AStr false 4; ANum TDouble NNaN; ANum TFloat NNaN] =
    [ANum TInteger (NFin 1 1); ABool true; AUntyped 4 None; ANum TDouble NNaN] /\
  index_of [ABool true; ANum TInteger (NFin 1 1); ANum TDecimal (NFin 10 10)] (ANum TDouble (NFin 1 1)) = [2; 3] /\
  extreme true [ANum TInteger (NFin 3 1); ANum TDecimal (NFin 25 10)] = RVal (ANum TDecimal (NFin 3 1)) /\
  extreme false [ANum TInteger (NFin 1 1); ABool true] = RErr 6 /\
  sum_ [AOrd 4 12; AOrd 4 1] = RVal (AOrd 4 13) /\ avg_ [ANum TInteger (NFin 1 1); ANum TInteger (NFin 2 1)] = RVal (ANum TDecimal (NFin 3 2)).
Proof. vm_compute. repeat split. Qed.
