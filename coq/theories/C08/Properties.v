From Coq Require Import ZArith List Bool Lia.
From EP Require Import C08.IterProduct C08.Model C08.Proofs.
Import ListNotations.
Open Scope Z_scope.

Theorem C08_insert_before : forall l position ins,
  insert_before l position ins =
  firstn (Z.to_nat (Z.max 0 (position - 1))) l ++ ins ++ skipn (Z.to_nat (Z.max 0 (position - 1))) l /\
  length (insert_before l position ins) = (length l + length ins)%nat.
Proof.
  intros l position ins. set (k := Z.to_nat (Z.max 0 (position - 1))).
  assert (E : insert_before l position ins = firstn k l ++ ins ++ skipn k l).
  { apply ib_loop_at. lia. }
  split; [exact E|]. rewrite E, !app_length, firstn_length, skipn_length. lia.
Qed.
Print Assumptions C08_insert_before.

Theorem C08_remove : forall l position,
  (1 <= position -> remove l position = firstn (Z.to_nat (position - 1)) l ++ skipn (S (Z.to_nat (position - 1))) l) /\
  (position < 1 -> remove l position = l).
Proof.
  intros l position. unfold remove. split; intros H; [|apply remove_loop_past; lia].
  apply remove_loop_at. lia.
Qed.
Print Assumptions C08_remove.

Theorem C08_index_of : forall l v p, In p (index_of l v) <-> 1 <= p /\ nth_error l (Z.to_nat (p - 1)) = Some v.
Proof. intros. apply index_loop_spec. Qed.
Print Assumptions C08_index_of.

Theorem C08_distinct_values : forall l, NoDup (distinct_values l) /\ forall x, In x (distinct_values l) <-> In x l.
Proof. intros l. split; [apply dv_loop_nodup|]. intros x. unfold distinct_values. rewrite dv_loop_in. cbn. tauto. Qed.
Print Assumptions C08_distinct_values.

(* every $x in S satisfies P  =  not(some $x in S satisfies not(P)), for any number of (dependent) ranges *)
Theorem C08_every_not_some_not : forall ranges cond,
  every_expr ranges cond = negb (some_expr ranges (fun e => negb (cond e))).
Proof.
  intros. unfold every_expr, some_expr. induction (product ranges []) as [|x r IH]; cbn; auto.
  rewrite IH. destruct (cond x); reflexivity.
Qed.
Print Assumptions C08_every_not_some_not.

(* for with several variables = nested for; the inner range may depend on the outer variable *)
Theorem C08_for_nested : forall A B f body,
  for_expr [fun _ => A; fun _ => B] body = flat_map (fun x => flat_map (fun y => body [x; y]) B) A /\
  for_expr [fun _ => A; fun env => f (nth 0 env 0)] body = flat_map (fun x => flat_map (fun y => body [x; y]) (f x)) A.
Proof. intros. split; [exact (for_two A (fun _ => B) body)|exact (for_two A (fun env => f (nth 0 env 0)) body)]. Qed.
Print Assumptions C08_for_nested.

(* subsequence(S, a, b) = S[round(a) le position() and position() lt round(a) + round(b)] (IEEE rules for INF/NaN) *)
Theorem C08_subsequence_as_filter : forall l a b,
  subsequence l a (Some b) = filter_pos (fun p => ext_le a (EFin p) && ext_lt (EFin p) (ext_add a b)) 1 l /\
  subsequence l a None = filter_pos (fun p => ext_le a (EFin p)) 1 l.
Proof. intros. split; reflexivity. Qed.
Print Assumptions C08_subsequence_as_filter.

Theorem C08_aggregates : forall l1 l2 l m,
  sum (l1 ++ l2) = sum l1 + sum l2 /\ (zmin l = Some m -> In m l /\ forall x, In x l -> m <= x).
Proof.
  intros. split.
  - unfold sum. rewrite fold_left_app. apply fold_add_acc.
  - destruct l as [|a r]; intros H; [discriminate|]. injection H as <-.
    apply (fold_least Z (fun _ => True) Z.le Z.min); auto; intros; lia.
Qed.
Print Assumptions C08_aggregates.

(* fn:string-join: the separator.join(items) of the code (a left fold) is the F&O value - the items in order with the
   separator between adjacent items - for every sequence of strings and every separator; with the laws that pin it down:
   concatenation of two non-empty sequences, the empty separator (= fn:concat of the items), and the length *)
Theorem C08_string_join : forall sep l l1 l2,
  py_join sep l = string_join l sep /\
  string_join [] sep = [] /\
  (l1 <> [] -> l2 <> [] -> string_join (l1 ++ l2) sep = string_join l1 sep ++ sep ++ string_join l2 sep) /\
  string_join l [] = concat l /\
  (l <> [] -> (length (string_join l sep) + length sep = length (concat l) + length l * length sep)%nat).
Proof.
  intros sep l l1 l2. split; [|split; [|split; [|split]]].
  - destruct l as [|s r]; [reflexivity|]. unfold py_join. rewrite fold_join, string_join_cons. reflexivity.
  - reflexivity.
  - destruct l1 as [|s r1], l2 as [|t r2]; try contradiction. intros _ _. cbn [app].
    rewrite !string_join_cons, flat_map_app. cbn [flat_map]. rewrite <- !app_assoc. reflexivity.
  - destruct l as [|s r]; [reflexivity|]. rewrite string_join_cons, flat_map_concat_map. cbn [concat]. f_equal. f_equal. apply map_id.
  - destruct l as [|s r]; [contradiction|]. intros _. rewrite string_join_cons. cbn [concat length]. rewrite !app_length.
    induction r as [|t r IH]; cbn [flat_map concat length]; [lia|]. rewrite !app_length. lia.
Qed.
Print Assumptions C08_string_join.

(* fn:empty and fn:exists are complementary and agree with fn:count *)
Theorem C08_empty_exists : forall l, empty l = negb (exists_ l) /\ (empty l = true <-> length l = 0%nat).
Proof. intros l. destruct l; split; try reflexivity; split; intros H; try reflexivity; discriminate. Qed.
Print Assumptions C08_empty_exists.

Example C08_nonvacuous :
  insert_before [1; 2; 3] 2 [9; 8] = [1; 9; 8; 2; 3] /\ insert_before [1; 2] 7 [9] = [1; 2; 9] /\ remove [1; 2; 3] 2 = [1; 3] /\
  for_expr [fun _ => [1; 2; 3]; fun env => range 1 (nth 0 env 0)] (fun e => [nth 0 e 0 * 10 + nth 1 e 0]) = [11; 21; 22; 31; 32; 33] /\
  subsequence [10; 20; 30; 40] (EFin 0) (Some (EFin 2)) = [10] /\ distinct_values [1; 2; 1; 3; 2] = [1; 2; 3].
Proof. vm_compute. repeat split. Qed.

(* XPathContext.iter_product: the index-stack loop over lazily (re)created iterators - which is what for / some / every
   run - stops and has yielded exactly the dependent Cartesian product, in lexicographic order: any dimension n >= 1,
   any range functions (each may depend on the values chosen for the variables before it) *)
Theorem C08_iter_product_loop : forall n sel, (1 <= n)%nat ->
  exists fuel, fin (run n sel fuel init) = true /\ out (run n sel fuel init) = dp sel n [].
Proof.
  intros n sel Hn.
  (* one step opens the iterator of level 0; `level` runs it to exhaustion, yielding the whole product; one more step
     finds it exhausted at level 0 and finishes *)
  destruct (level n sel (n - 1) 0 ltac:(lia) Hn (sel 0%nat []) (step n sel init))
    as (f & s2 & R & P1 & P2 & P3 & _ & _ & _ & P7); try reflexivity.
  { intros j Hj. cbn. apply upd_neq. lia. }
  exists (1 + (f + 1))%nat. rewrite (run_add n sel 1), (run_add n sel f). cbn [run]. rewrite R.
  unfold step. rewrite P2, P1, P3. cbn [Nat.eqb fin out]. split; [reflexivity|].
  rewrite P7. destruct n as [|m]; [lia|]. cbn. replace (m - 0)%nat with m by lia. reflexivity.
Qed.
Print Assumptions C08_iter_product_loop.
Example C08_iter_product_nonvacuous :
  let sel := fun (k : nat) pre => match k with O => [1; 2; 3] | _ => map Z.of_nat (seq 1 (Z.to_nat (nth 0 pre 0))) end in
  out (run 2%nat sel 40%nat init) = [[1; 1]; [2; 1]; [2; 2]; [3; 1]; [3; 2]; [3; 3]] /\ fin (run 2%nat sel 40%nat init) = true.
Proof. vm_compute. split; reflexivity. Qed.
