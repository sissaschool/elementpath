(* C08 / C05 — XPathContext.iter_product: the index-stack loop over lazily (re)created iterators computes the dependent
   Cartesian product in lexicographic order.

     def start(index):
         context = copy(self); context.variables = self.variables.copy()
         yield from selectors[index](context)
     iterators = [start(k) for k in range(len(selectors))]; prod = [None] * dimension; k = 0
     while True:
         for value in iterators[k]:
             self.variables[varnames[k]] = value; prod[k] = value
             if k == max_index: yield tuple(prod)
             else: k += 1
             break
         else:
             if not k: return
             iterators[k] = start(k); k -= 1

   start is a generator function: creating the generator evaluates nothing; the variables are copied and the range
   expression is evaluated at the first next(), in the variables as they are then (the values written for the levels
   below).  Iterator k is modelled as None (created, not started) or Some l (remaining values). *)
From Coq Require Import ZArith List Arith Lia.
Import ListNotations.

Section IterProduct.
Variable n : nat.                               (* dimension, n >= 1 *)
Variable sel : nat -> list Z -> list Z.         (* range k, given the values of the variables 0 .. k-1 *)

Record st := mk { lev : nat; its : nat -> option (list Z); prod : nat -> Z; out : list (list Z); fin : bool }.
Definition upd {A} (f : nat -> A) (k : nat) (v : A) : nat -> A := fun j => if Nat.eqb j k then v else f j.
Definition prefix (p : nat -> Z) (k : nat) : list Z := map p (seq 0 k).

Definition step (s : st) : st :=
  if fin s then s else
  let k := lev s in
  match its s k with
  | None => mk k (upd (its s) k (Some (sel k (prefix (prod s) k)))) (prod s) (out s) false      (* first next() *)
  | Some (v :: r) =>
      let p := upd (prod s) k v in
      let i := upd (its s) k (Some r) in
      if Nat.eqb k (n - 1) then mk k i p (out s ++ [prefix p n]) false else mk (S k) i p (out s) false
  | Some [] =>
      if Nat.eqb k 0 then mk k (its s) (prod s) (out s) true
      else mk (k - 1) (upd (its s) k None) (prod s) (out s) false
  end.
Fixpoint run (fuel : nat) (s : st) : st := match fuel with O => s | S f => run f (step s) end.
Definition init : st := mk 0 (fun _ => None) (fun _ => 0%Z) [] false.

(* specification: the dependent product, lexicographic *)
Fixpoint dp (d : nat) (pre : list Z) : list (list Z) :=
  match d with
  | O => [pre]
  | S d' => flat_map (fun v => dp d' (pre ++ [v])) (sel (length pre) pre)
  end.

(* { P } loop { Q }: from a state in P the loop comes to a state in Q *)
Definition leads (P Q : st -> Prop) : Prop := forall s, P s -> exists f, Q (run f s).
Lemma leads_refl : forall P, leads P P.
Proof. intros P s H. exists 0%nat. exact H. Qed.
Lemma leads_step : forall P Q : st -> Prop, (forall s, P s -> Q (step s)) -> leads P Q.
Proof. intros P Q H s Hs. exists 1%nat. apply H, Hs. Qed.
Lemma run_add : forall a b s, run (a + b) s = run b (run a s).
Proof. induction a as [|a IH]; intros b s; cbn; auto. Qed.
Lemma leads_trans : forall P Q R, leads P Q -> leads Q R -> leads P R.
Proof.
  intros P Q R H1 H2 s Hs. destruct (H1 s Hs) as (a & Ha). destruct (H2 _ Ha) as (b & Hb).
  exists (a + b)%nat. rewrite run_add. exact Hb.
Qed.

Lemma upd_eq : forall A (f : nat -> A) k v, upd f k v k = v.
Proof. intros. unfold upd. rewrite Nat.eqb_refl. reflexivity. Qed.
Lemma upd_neq : forall A (f : nat -> A) k v j, j <> k -> upd f k v j = f j.
Proof. intros A f k v j H. unfold upd. apply Nat.eqb_neq in H. rewrite H. reflexivity. Qed.

Lemma prefix_upd_ge : forall p k j v, (k <= j)%nat -> prefix (upd p j v) k = prefix p k.
Proof.
  intros p k j v H. apply map_ext_in. intros a Ha. apply in_seq in Ha. apply upd_neq. lia.
Qed.
Lemma prefix_S : forall p k, prefix p (S k) = prefix p k ++ [p k].
Proof. intros p k. unfold prefix. rewrite seq_S, map_app. reflexivity. Qed.
Lemma prefix_upd_S : forall p k v, prefix (upd p k v) (S k) = prefix p k ++ [v].
Proof. intros. rewrite prefix_S, prefix_upd_ge, upd_eq by lia. reflexivity. Qed.
Lemma prefix_length : forall p k, length (prefix p k) = k.
Proof. intros. unfold prefix. rewrite map_length, seq_length. reflexivity. Qed.

(* processing level k until its iterator is exhausted *)
Definition level_post (k : nat) (s s' : st) (emitted : list (list Z)) : Prop :=
  lev s' = k /\ fin s' = false /\ its s' k = Some [] /\
  (forall j, (j < k)%nat -> its s' j = its s j) /\ (forall j, (k < j)%nat -> its s' j = None) /\
  prefix (prod s') k = prefix (prod s) k /\ out s' = out s ++ emitted.

(* s stands at level |pre| with iterator it there: the variables below are bound to pre, the iterators below are those
   of i, none is open above, o has been yielded.  i, pre and o do not change while the loop works at this level and above *)
Definition at_level (i : nat -> option (list Z)) (pre : list Z) (o : list (list Z)) (it : option (list Z)) (s : st) : Prop :=
  lev s = length pre /\ fin s = false /\ its s (length pre) = it /\
  (forall j, (j < length pre)%nat -> its s j = i j) /\ (forall j, (length pre < j)%nat -> its s j = None) /\
  prefix (prod s) (length pre) = pre /\ out s = o.

(* the branches of step: the first next(); a value at the innermost level; a value below it; exhausted above level 0 *)
Lemma step_start : forall i pre o,
  leads (at_level i pre o None) (at_level i pre o (Some (sel (length pre) pre))).
Proof.
  intros i pre o. apply leads_step. intros s (Hl & Hf & Hk & Hi & Ha & Hp & Ho). unfold step. rewrite Hf, Hl, Hk, Hp.
  unfold at_level. cbn [lev fin its prod out]. rewrite upd_eq. repeat split; auto.
  all: intros j Hj; rewrite upd_neq by lia; auto.
Qed.
Lemma step_yield : forall i pre o v r, (S (length pre) = n)%nat ->
  leads (at_level i pre o (Some (v :: r))) (at_level i pre (o ++ [pre ++ [v]]) (Some r)).
Proof.
  intros i pre o v r Hn. apply leads_step. intros s (Hl & Hf & Hk & Hi & Ha & Hp & Ho). unfold step. rewrite Hf, Hl, Hk, <- Hn.
  cbn [Nat.sub]. rewrite Nat.sub_0_r, Nat.eqb_refl. unfold at_level. cbn [lev fin its prod out].
  rewrite prefix_upd_S, prefix_upd_ge, upd_eq, Hp, Ho by lia. repeat split.
  all: intros j Hj; rewrite upd_neq by lia; auto.
Qed.
Lemma step_up : forall i pre o v r, (S (length pre) < n)%nat ->
  leads (at_level i pre o (Some (v :: r))) (at_level (upd i (length pre) (Some r)) (pre ++ [v]) o None).
Proof.
  intros i pre o v r Hn. apply leads_step. intros s (Hl & Hf & Hk & Hi & Ha & Hp & Ho). unfold step. rewrite Hf, Hl, Hk.
  replace (Nat.eqb (length pre) (n - 1)) with false by (symmetry; apply Nat.eqb_neq; lia).
  unfold at_level. rewrite last_length. cbn [lev fin its prod out]. rewrite prefix_upd_S, Hp.
  repeat split; auto.
  - rewrite upd_neq by lia. apply Ha. lia.
  - intros j Hj. unfold upd. destruct (Nat.eqb_spec j (length pre)); auto. apply Hi. lia.
  - intros j Hj. rewrite upd_neq by lia. apply Ha. lia.
Qed.
Lemma step_down : forall i pre o v r,
  leads (at_level (upd i (length pre) (Some r)) (pre ++ [v]) o (Some [])) (at_level i pre o (Some r)).
Proof.
  intros i pre o v r. apply leads_step. intros s (Hl & Hf & Hk & Hi & Ha & Hp & Ho). rewrite last_length in *.
  unfold step. rewrite Hf, Hl, Hk. cbn [Nat.eqb Nat.sub]. rewrite Nat.sub_0_r.
  unfold at_level. cbn [lev fin its prod out]. rewrite prefix_S in Hp. apply app_inj_tail in Hp. destruct Hp as [Hp _].
  repeat split; auto.
  - rewrite upd_neq, Hi, upd_eq by lia. reflexivity.
  - intros j Hj. rewrite upd_neq, Hi, upd_neq by lia. reflexivity.
  - intros j Hj. destruct (Nat.eq_dec j (S (length pre))) as [->|Hj']; [apply upd_eq|]. rewrite upd_neq by exact Hj'. apply Ha. lia.
Qed.

(* one value of level |pre|, with d levels above it: the loop takes it and comes back for the next one *)
Definition takes (d : nat) (pre : list Z) : Prop := forall i o v r,
  leads (at_level i pre o (Some (v :: r))) (at_level i pre (o ++ dp d (pre ++ [v])) (Some r)).

Lemma takes_all : forall d pre, takes d pre -> forall i l o,
  leads (at_level i pre o (Some l)) (at_level i pre (o ++ flat_map (fun v => dp d (pre ++ [v])) l) (Some [])).
Proof.
  intros d pre T i. induction l as [|v r IHr]; intros o; cbn [flat_map].
  - rewrite app_nil_r. apply leads_refl.
  - rewrite app_assoc. eapply leads_trans; [apply T|apply IHr].
Qed.

Lemma takes_level : forall d pre, (length pre + d = n - 1)%nat -> (1 <= n)%nat -> takes d pre.
Proof.
  induction d as [|d IHd]; intros pre Hk Hn i o v r.
  - apply step_yield. lia.
  - eapply leads_trans; [apply step_up; lia|].
    eapply leads_trans; [apply step_start|].
    eapply leads_trans; [|apply step_down].
    apply (takes_all d), IHd; [rewrite last_length; lia|exact Hn].
Qed.

(* takes_all at the iterator of level k, stated from a state and over level_post: the form C08_iter_product_loop uses *)
Lemma level : forall d k, (k + d = n - 1)%nat -> (1 <= n)%nat -> forall l s,
  lev s = k -> fin s = false -> its s k = Some l -> (forall j, (k < j)%nat -> its s j = None) ->
  exists f s', run f s = s' /\
    level_post k s s' (flat_map (fun v => dp d (prefix (prod s) k ++ [v])) l).
Proof.
  intros d k Hk Hn l s Hl Hf Hi Hab. pose proof (prefix_length (prod s) k) as E.
  destruct (takes_all d (prefix (prod s) k)) with (i := its s) (l := l) (o := out s) (s := s) as (f & B).
  - apply takes_level; [rewrite E; exact Hk|exact Hn].
  - unfold at_level. rewrite E. auto 7.
  - unfold at_level in B. rewrite E in B. exists f, (run f s). split; [reflexivity|exact B].
Qed.
End IterProduct.
