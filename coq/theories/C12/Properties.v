(* C12 property theorems: the matcher, the quantifiers, the class algebra and the translated expressions against the XSD
   semantics, analyze-string, and the refuted variants *)
From Coq Require Import ZArith List Arith Lia.
From EP Require Import C13.Model Gen.C12Sets C12.Regex C12.Classes C12.Model C12.Proofs.
From EP Require Gen.C12Shape.
Import ListNotations.
Open Scope Z_scope.

(* the matcher used as the oracle decides the XSD semantics (sets of strings): all expressions, all strings *)
Theorem C12_matcher_decides_language : forall r s, matches r s = true <-> lang r s.
Proof. exact matches_lang. Qed.
Print Assumptions C12_matcher_decides_language.

(* bounded and unbounded quantifiers {n,m} {n,} (and ? * + as {0,1} {0,} {1,}) mean "k repetitions, n <= k <= m" *)
Theorem C12_quantifiers : forall r n s,
  (forall m, (n <= m)%nat -> (lang (quant r n (Some m)) s <-> exists k, (n <= k <= m)%nat /\ pow r k s)) /\
  (lang (quant r n None) s <-> exists k, (n <= k)%nat /\ pow r k s).
Proof.
  intros r n s. split; [intros m L|]; rewrite quant_pow; split; intros (k & H & P); exists k; (split; [lia|exact P]).
Qed.
Print Assumptions C12_quantifiers.

(* the CharacterClass algebra of the code (positive / negated subsets, _add_negative, complement, subtraction) computes
   the set the class expression denotes: all class expressions (parts, negation, nested subtraction), all code points *)
Theorem C12_character_classes : forall c, cls_ok c -> forall x, 0 <= x <= maxunicode -> mem (cls_impl c) x = cls_spec c x.
Proof. intros c H x Hx. destruct (cls_impl_spec c H) as (_ & D). apply D. exact Hx. Qed.
Print Assumptions C12_character_classes.

(* hence matching with the classes as the code computes them is matching under the XSD semantics: all expressions,
   all subject strings, anchored or searched, with and without dot-all *)
(* FULL STATEMENT: forall r accepted, impl_matches = xsd_matches. Proved under escapes_faithful (every escape outside a
   class denotes its XSD set); it fails for \w \W \s \S outside a class, which the code passes through to Python's re. *)
Theorem C12_same_language_partial : forall dotall a z r s, rx_ok r -> escapes_faithful r ->
  impl_matches dotall a z r s = xsd_matches dotall a z r s.
Proof.
  intros dotall a z r s H F. apply matches_same. unfold wrap.
  destruct a, z; repeat apply same_cat; auto using same_refl, to_re_same.
Qed.
Print Assumptions C12_same_language_partial.
(* \w outside a class: Python's \w contains '_' (Pc) and not '^' (Sk); XSD \w is [^\p{P}\p{Z}\p{C}] *)
Theorem C12_toplevel_w_refuted :
  impl_matches false true true (RSet false Gen.C12Sets.esc_w Gen.C12Sets.py_w) [95] <> xsd_matches false true true (RSet false Gen.C12Sets.esc_w Gen.C12Sets.py_w) [95] /\
  impl_matches false true true (RSet false Gen.C12Sets.esc_s Gen.C12Sets.py_s) [160] <> xsd_matches false true true (RSet false Gen.C12Sets.esc_s Gen.C12Sets.py_s) [160].
Proof. vm_compute. split; discriminate. Qed.
Print Assumptions C12_toplevel_w_refuted.

(* the code before the fixes: [^a\D] contains 'b', [\D\S] does not contain '5', [a\S-[\D]] contains 'a' *)
Theorem C12_old_class_algebra_refuted :
  let d := [Range 48 58] in let s := [Single 32] in
  mem (cls_old (Cls true [PPos [Single 97]; PNeg d] None)) 98 <> cls_spec (Cls true [PPos [Single 97]; PNeg d] None) 98 /\
  mem (cls_old (Cls false [PNeg d; PNeg s] None)) 53 <> cls_spec (Cls false [PNeg d; PNeg s] None) 53 /\
  mem (cls_old (Cls false [PPos [Single 97]; PNeg s] (Some (Cls false [PNeg d] None)))) 97 <>
    cls_spec (Cls false [PPos [Single 97]; PNeg s] (Some (Cls false [PNeg d] None))) 97.
Proof. vm_compute. repeat split; discriminate. Qed.
Print Assumptions C12_old_class_algebra_refuted.

(* analyze-string: the match / non-match parts concatenate to the input, for every list of sorted disjoint spans *)
Theorem C12_analyze_string_partition : forall spans s, spans_ok 0 spans -> concat (map snd (cut s 0 spans)) = s.
Proof. intros. apply cut_concat. assumption. Qed.
Print Assumptions C12_analyze_string_partition.

Example C12_nonvacuous :
  let d := [Range 48 58] in
  let c := Cls true [PPos [Single 97]; PNeg d] (Some (Cls false [PPos [Single 53]] None)) in   (* [^a\D-[5]] *)
  cls_ok c /\ mem (cls_impl c) 54 = true /\ mem (cls_impl c) 53 = false /\ mem (cls_impl c) 98 = false /\
  xsd_matches false true true (RCat (RQuant (RCls c) 2%nat (Some 3%nat)) (RChar 120)) [54; 55; 120] = true /\
  xsd_matches false true true (RCat (RQuant (RCls c) 2%nat (Some 3%nat)) (RChar 120)) [54; 120] = false.
Proof. cbn zeta. split; [|vm_compute; repeat split]. apply cls_okb_ok. vm_compute. reflexivity. Qed.

(* the statements of /repo that the hand model mirrors are present in the source as read on this run (T-data,
   harness/shape.py -> Gen/C12Shape.v) *)
Theorem C12_source_shape : Gen.C12Shape.shape_ok = true.
Proof. reflexivity. Qed.
Print Assumptions C12_source_shape.
