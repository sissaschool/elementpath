(* C12 property theorems: the q flag *)
From Coq Require Import ZArith List.
From EP Require Import C12.Regex C12.Literal.
Import ListNotations.
Open Scope Z_scope.

(* a literal pattern matches exactly itself - whatever characters it is made of (metacharacters, white space, '#') - so
   with the q flag fn:matches is the substring test and the matcher decides it *)
Theorem C12_literal_pattern : forall s t,
  (lang (lit s) t <-> t = s) /\ (matches (lit s) t = true <-> t = s) /\
  (occurs (lit s) t <-> exists a b, t = a ++ s ++ b).
Proof.
  intros s t. split; [apply lit_lang|]. split.
  - rewrite matches_lang. apply lit_lang.
  - split.
    + intros (a & m & b & E & L). apply lit_lang in L. subst m. exists a, b. exact E.
    + intros (a & b & E). exists a, s, b. split; [exact E|apply lit_lang; reflexivity].
Qed.
Print Assumptions C12_literal_pattern.
Example C12_literal_nonvacuous : matches (lit [97; 32; 35; 46]) [97; 32; 35; 46] = true /\ matches (lit [46]) [120] = false.
Proof. vm_compute. split; reflexivity. Qed.
