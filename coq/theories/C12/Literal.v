(* C12: the q flag - the pattern is a literal string.  lit s is the regular expression of the string s; its language is
   {s}, so searching it in an input is searching the substring s. *)
From Coq Require Import ZArith List.
From EP Require Import C12.Regex.
Import ListNotations.
Open Scope Z_scope.

Definition lit (s : list Z) : re := fold_right (fun c r => Cat (Chr (Z.eqb c)) r) Eps s.
(* an occurrence of the pattern in the input (fn:matches searches) *)
Definition occurs (r : re) (t : list Z) : Prop := exists a m b, t = a ++ m ++ b /\ lang r m.

Lemma lit_lang : forall s t, lang (lit s) t <-> t = s.
Proof.
  induction s as [|c s IH]; intros t; cbn [lit fold_right]; [apply lang_eps|].
  rewrite lang_cat. setoid_rewrite lang_chr. setoid_rewrite IH. split.
  - intros (u & v & -> & (d & -> & ->%Z.eqb_eq) & ->). reflexivity.
  - intros ->. exists [c], s. pose proof (Z.eqb_refl c). eauto 7.
Qed.
