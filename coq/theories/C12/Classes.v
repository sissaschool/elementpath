(* C12 — character classes: model of regex/character_classes.py CharacterClass (a positive and a negated UnicodeSubset,
   membership "in positive or not in negated"), its add / complement / subtraction as in the code after the fixes, and
   the variants before the fixes. UnicodeSubset operations are those of the C13 model (proved there). *)
From Coq Require Import ZArith List Bool Lia Btauto.
From EP Require Import C13.Model C13.Proofs.
Import ListNotations.
Open Scope Z_scope.

Record cc := mkcc { pos : list item; neg : list item }.
(* __contains__: "if self.negative: return item not in self.negative or item in self.positive; return item in self.positive" *)
Definition mem (c : cc) (x : Z) : bool :=
  match neg c with [] => den (pos c) x | _ :: _ => den (pos c) x || negb (den (neg c) x) end.
Definition full : list item := [Range 0 (maxunicode + 1)].
Definition is_nil {A} (l : list A) : bool := match l with [] => true | _ => false end.

(* the parts of a character group after iterparse_character_subset / CHARACTER_ESCAPES: characters, ranges and
   positive escapes (\s \d \p{..}) are sets added to the positive subset; negated escapes (\S \D \P{..}) are sets whose
   complement is meant *)
Inductive part := PPos (l : list item) | PNeg (l : list item).

(* intersection by ranges, "s -= s - o" (the code's own &= enumerates code points; C13.iand_spec proves it denotes the
   same set, and only the denotation and the emptiness of a subset are observed here) *)
Definition iand2 (s o : list item) : list item := isub s (isub s o).
(* _add_negative (after the fix): ~a | ~b = ~(a & b) *)
Definition add_negative (c : cc) (l : list item) : cc :=
  match neg c with
  | [] => mkcc (pos c) (ior [] l)
  | _ :: _ => let n := iand2 (neg c) l in if is_nil n then mkcc full [] else mkcc (pos c) n
  end.
Definition add_part (c : cc) (p : part) : cc :=
  match p with PPos l => mkcc (ior (pos c) l) (neg c) | PNeg l => add_negative c l end.
Definition build (parts : list part) : cc := fold_left add_part parts (mkcc [] []).

Definition complement_cc (c : cc) : cc :=
  match pos c, neg c with
  | [], [] => mkcc full []
  | _ :: _, _ :: _ => mkcc (isub (neg c) (pos c)) []
  | _, _ => mkcc (neg c) (pos c)
  end.
Definition isub_cc (c o : cc) : cc :=
  let '(p, n) := match neg c, neg o with
                 | _ :: _, _ :: _ => (ior (iand2 (pos c) (neg o)) (isub (neg o) (neg c)), [])
                 | _ :: _, [] => (pos c, ior (neg c) (pos o))
                 | [], _ :: _ => (iand2 (pos c) (neg o), [])
                 | [], [] => (pos c, [])
                 end in
  mkcc (isub p (pos o)) n.

(* ---- the code before the fixes ---- *)
Definition add_part_old (c : cc) (p : part) : cc :=
  match p with PPos l => mkcc (ior (pos c) l) (neg c) | PNeg l => mkcc (pos c) (ior (neg c) l) end.
Definition build_old (parts : list part) : cc := fold_left add_part_old parts (mkcc [] []).
Definition complement_old (c : cc) : cc :=
  match pos c, neg c with [], [] => mkcc full [] | _, _ => mkcc (neg c) (pos c) end.
Definition isub_old (c o : cc) : cc :=
  let '(p, n) := match neg c, neg o with
                 | _ :: _, _ :: _ => (ior (pos c) (isub (neg o) (neg c)), ior [] (pos o))
                 | _ :: _, [] => (pos c, ior (neg c) (pos o))
                 | [], _ :: _ => (iand2 (pos c) (neg o), [])
                 | [], [] => (pos c, [])
                 end in
  mkcc (isub p (pos o)) n.

(* ---- specification: sets of code points ---- *)
Definition part_mem (p : part) (x : Z) : bool := match p with PPos l => den l x | PNeg l => negb (den l x) end.
Definition spec_mem (parts : list part) (x : Z) : bool := existsb (fun p => part_mem p x) parts.
Definition cp (x : Z) : Prop := 0 <= x <= maxunicode.

Definition WFcc (c : cc) : Prop := WF (pos c) /\ WF (neg c).
Definition part_ok (p : part) : Prop := match p with PPos l => WF l | PNeg l => WF l /\ l <> [] end.
(* a well-formed class whose members among the code points are the set f *)
Definition denotes (c : cc) (f : Z -> bool) : Prop := WFcc c /\ forall x, cp x -> mem c x = f x.

Lemma denotes_ext : forall c f g, denotes c f -> (forall x, f x = g x) -> denotes c g.
Proof. intros c f g (W & D) E. split; [exact W|]. intros x Hx. rewrite <- E. exact (D x Hx). Qed.

Lemma WF_head_den : forall i r, WF (i :: r) -> den (i :: r) (lo i) = true.
Proof. intros i r (H & _). den_lia. Qed.
Lemma nonnil_incl : forall l l', WF l -> l <> [] -> (forall x, den l x = true -> den l' x = true) -> l' <> [].
Proof.
  intros [|i r] l' W Hl H E; [congruence|]. specialize (H (lo i) (WF_head_den i r W)). rewrite E in H. discriminate.
Qed.
Lemma mem_nonnil : forall P N x, N <> [] -> mem (mkcc P N) x = den P x || negb (den N x).
Proof. intros P [|n r] x H; [congruence|reflexivity]. Qed.
Lemma den_full : forall x, cp x -> den full x = true.
Proof. unfold cp, full. intros x H. den_lia. Qed.
Lemma WF_full : WF full.
Proof. unfold full, maxunicode. cbn. lia. Qed.

Lemma iand2_spec : forall s o, WF s -> WF o -> WF (iand2 s o) /\ forall x, den (iand2 s o) x = den s x && den o x.
Proof.
  intros s o Ws Wo. unfold iand2. destruct (isub_spec s o Ws Wo) as (W1 & D1). destruct (isub_spec s _ Ws W1) as (W2 & D2).
  split; auto. intros x. rewrite D2, D1. btauto.
Qed.

Lemma add_negative_ok : forall c l f, denotes c f -> WF l -> l <> [] ->
  denotes (add_negative c l) (fun x => f x || negb (den l x)).
Proof.
  intros [P N] l f ((WP & WN) & D) Wl Hl. unfold add_negative, denotes, WFcc. cbn [pos neg] in *.
  destruct N as [|n0 nr].
  - destruct (ior_spec [] l I Wl) as (W1 & D1). cbn [pos neg]. split; [split; assumption|]. intros x Hx.
    rewrite <- (D x Hx), mem_nonnil, D1; [reflexivity|]. apply (nonnil_incl l); auto. intros y Hy. rewrite D1. exact Hy.
  - destruct (iand2_spec (n0 :: nr) l WN Wl) as (W1 & D1).
    destruct (iand2 (n0 :: nr) l) as [|a b]; cbn [is_nil pos neg].
    + (* the negative part would be empty, which stands for no negative part: every code point is a member *)
      split; [split; [apply WF_full|exact I]|]. intros x Hx. rewrite <- (D x Hx). unfold mem. cbn [pos neg].
      rewrite (den_full x Hx), <- orb_assoc, <- negb_andb, <- D1. symmetry. apply orb_true_r.
    + split; [split; assumption|]. intros x Hx. rewrite <- (D x Hx). unfold mem. cbn [pos neg]. rewrite D1. btauto.
Qed.

Lemma add_part_ok : forall c p f, denotes c f -> part_ok p -> denotes (add_part c p) (fun x => f x || part_mem p x).
Proof.
  intros c [l|l] f Hc Hp; cbn [add_part part_mem part_ok] in *; [|apply add_negative_ok; tauto].
  destruct c as [P N], Hc as ((WP & WN) & D). cbn [pos neg] in *. destruct (ior_spec P l WP Hp) as (W1 & D1).
  split; [split; assumption|]. intros x Hx. rewrite <- (D x Hx). unfold mem. cbn [pos neg]. rewrite D1.
  destruct N; btauto.
Qed.

Lemma build_from : forall parts c f, denotes c f -> Forall part_ok parts ->
  denotes (fold_left add_part parts c) (fun x => f x || spec_mem parts x).
Proof.
  induction parts as [|p r IH]; intros c f Hc Hok; cbn [fold_left]; inversion Hok; subst.
  - apply (denotes_ext c f); [exact Hc|]. intros x. cbn. rewrite orb_false_r. reflexivity.
  - eapply denotes_ext; [apply IH; [apply add_part_ok|]; eassumption|]. intros x. cbn. rewrite orb_assoc. reflexivity.
Qed.
Lemma build_ok : forall parts, Forall part_ok parts -> denotes (build parts) (spec_mem parts).
Proof.
  intros parts H. apply (build_from parts (mkcc [] []) (fun _ => false)); [|exact H]. split; [exact (conj I I)|reflexivity].
Qed.

Lemma complement_ok : forall c f, denotes c f -> denotes (complement_cc c) (fun x => negb (f x)).
Proof.
  intros [P N] f ((WP & WN) & D). unfold complement_cc, denotes, WFcc. cbn [pos neg] in *.
  destruct P as [|p0 pr], N as [|n0 nr]; cbn [pos neg].
  - split; [split; [apply WF_full|exact I]|]. intros x Hx. rewrite <- (D x Hx). apply (den_full x Hx).
  - split; [split; assumption|]. intros x Hx. rewrite <- (D x Hx). unfold mem. cbn [pos neg den]. btauto.
  - split; [split; assumption|]. intros x Hx. rewrite <- (D x Hx). unfold mem. cbn [pos neg den]. btauto.
  - destruct (isub_spec (n0 :: nr) (p0 :: pr) WN WP) as (W1 & D1). split; [split; [assumption|exact I]|].
    intros x Hx. rewrite <- (D x Hx). unfold mem. cbn [pos neg]. rewrite D1. btauto.
Qed.

Lemma isub_cc_ok : forall c o f g, denotes c f -> denotes o g ->
  denotes (isub_cc c o) (fun x => f x && negb (g x)).
Proof.
  intros [P1 N1] [P2 N2] f g ((WP1 & WN1) & Df) ((WP2 & WN2) & Dg). unfold isub_cc, denotes, WFcc. cbn [pos neg] in *.
  destruct (iand2_spec P1 N2 WP1 WN2) as (Wa & Da). destruct (isub_spec N2 N1 WN2 WN1) as (Wb & Db).
  destruct (ior_spec _ _ Wa Wb) as (Wc & Dc). destruct (ior_spec N1 P2 WN1 WP2) as (Wd & Dd).
  destruct N1 as [|a1 r1], N2 as [|a2 r2]; cbn [pos neg].
  - destruct (isub_spec P1 P2 WP1 WP2) as (W & D). split; [split; [exact W|exact I]|].
    intros x Hx. rewrite <- (Df x Hx), <- (Dg x Hx). unfold mem. cbn [pos neg]. rewrite D. reflexivity.
  - destruct (isub_spec _ P2 Wa WP2) as (W & D). split; [split; [exact W|exact I]|].
    intros x Hx. rewrite <- (Df x Hx), <- (Dg x Hx). unfold mem. cbn [pos neg]. rewrite D, Da. btauto.
  - destruct (isub_spec P1 P2 WP1 WP2) as (W & D). split; [split; [exact W|exact Wd]|].
    intros x Hx. rewrite <- (Df x Hx), <- (Dg x Hx), mem_nonnil.
    + unfold mem. cbn [pos neg]. rewrite D, Dd. btauto.
    + apply (nonnil_incl (a1 :: r1)); [exact WN1|discriminate|]. intros y Hy. rewrite Dd, Hy. reflexivity.
  - destruct (isub_spec _ P2 Wc WP2) as (W & D). split; [split; [exact W|exact I]|].
    intros x Hx. rewrite <- (Df x Hx), <- (Dg x Hx). unfold mem. cbn [pos neg]. rewrite D, Dc, Da, Db. btauto.
Qed.
