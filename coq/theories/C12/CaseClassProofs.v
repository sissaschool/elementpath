From Coq Require Import ZArith List Bool.
From EP Require Import Common.Lists C12.CaseClass.
Import ListNotations.
Open Scope Z_scope.

Lemma mem_app : forall x a b, mem x (a ++ b) = mem x a || mem x b.
Proof. intros. unfold mem. apply existsb_app. Qed.
Lemma mem_flat_map : forall (f : Z -> list Z) x l, mem x (flat_map f l) = existsb (fun c => mem x (f c)) l.
Proof.
  intros f x l. induction l as [|c r IH]; [reflexivity|]. cbn [flat_map existsb]. rewrite mem_app, IH. reflexivity.
Qed.
Lemma existsb_orb : forall (A : Type) (f g : A -> bool) l, existsb (fun c => f c || g c) l = existsb f l || existsb g l.
Proof.
  intros A f g l. induction l as [|c r IH]; [reflexivity|]. cbn [existsb]. rewrite IH.
  destruct (f c), (g c), (existsb f r), (existsb g r); reflexivity.
Qed.
Lemma mem_eqb_swap : forall d l, existsb (fun c => c =? d) l = mem d l.
Proof. intros d l. unfold mem. apply existsb_ext. intros c. apply Z.eqb_sym. Qed.

Lemma group_impl_spec : forall variants lits escapes d,
  impl_i variants (Group lits escapes) d = spec_i variants (Group lits escapes) d.
Proof.
  intros variants lits escapes d. cbn [impl_i spec_i]. unfold closure. rewrite mem_app, mem_flat_map.
  rewrite existsb_orb. rewrite mem_eqb_swap. reflexivity.
Qed.
