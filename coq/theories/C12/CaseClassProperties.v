From Coq Require Import ZArith List Bool.
From EP Require Import Common.Lists C12.CaseClass C12.CaseClassProofs.
Import ListNotations.
Open Scope Z_scope.

(* closing the literal part of every group under the case variants and then working with plain sets (the code) is the
   F&O definition (an input character matches a pattern character that is a case variant of it; escapes are unaffected),
   for every class expression with negation and subtraction and every variants relation *)
Theorem C12_case_insensitive_classes : forall variants c d, impl_i variants c d = spec_i variants c d.
Proof.
  intros variants c d. induction c as [lits escapes|c IH|a IHa b IHb]; [apply group_impl_spec|cbn [impl_i spec_i]; congruence..].
Qed.
Print Assumptions C12_case_insensitive_classes.
(* read from the input character when the variants relation is symmetric: d or one of its case variants is a literal of the
   group, or d is in one of the escape sets *)
Theorem C12_case_insensitive_group : forall variants lits escapes d,
  (forall a b, mem a (variants b) = mem b (variants a)) ->
  spec_i variants (Group lits escapes) d = (mem d lits || existsb (fun v => mem v lits) (variants d)) || existsb (mem d) escapes.
Proof.
  intros variants lits escapes d Hs. cbn [spec_i]. f_equal. rewrite existsb_orb, mem_eqb_swap. f_equal.
  (* a literal c counts on the left when d is a variant of c, on the right when c is a variant of d *)
  induction lits as [|c r IH]; cbn [existsb].
  - induction (variants d) as [|v vs IHv]; [reflexivity|exact IHv].
  - rewrite IH, Hs, <- mem_eqb_swap, <- existsb_orb. apply existsb_ext. intros v. reflexivity.
Qed.
Print Assumptions C12_case_insensitive_group.
(* no variants: the flag changes nothing *)
Theorem C12_case_flag_without_variants : forall c d, impl_i (fun _ => []) c d = plain c d.
Proof.
  intros c d. induction c as [lits escapes|c IH|a IHa b IHb]; [|cbn [impl_i plain]; congruence..].
  rewrite group_impl_spec. cbn [spec_i plain mem existsb]. f_equal. rewrite <- mem_eqb_swap.
  apply existsb_ext. intros c. apply orb_false_r.
Qed.
Print Assumptions C12_case_flag_without_variants.
(* before the repair the escape sets were matched case-insensitively too: [\p{Lu}] matched "a" *)
Theorem C12_case_old_refuted : exists variants c d, old_i variants c d <> spec_i variants c d.
Proof.
  exists (fun c => if c =? 65 then [97] else if c =? 97 then [65] else []), (Group [] [[65]]), 97.
  vm_compute. discriminate.
Qed.
Print Assumptions C12_case_old_refuted.
