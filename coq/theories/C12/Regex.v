(* C12 — regular expressions over code points: denotational semantics (the XSD definition: sets of strings), a
   derivative matcher, and the proof that the matcher decides the semantics; bounded quantifiers by expansion. *)
From Coq Require Import ZArith List Bool Arith Lia.
Import ListNotations.

Inductive re :=
| Nul                                  (* no string *)
| Eps                                  (* the empty string *)
| Chr (p : Z -> bool)                  (* one code point of a set: normal char, ., class, escape *)
| Alt (a b : re)                       (* branches a|b *)
| Cat (a b : re)                       (* pieces ab *)
| Star (a : re).                       (* a* *)

Inductive lang : re -> list Z -> Prop :=
| LEps : lang Eps []
| LChr : forall p c, p c = true -> lang (Chr p) [c]
| LAltL : forall a b s, lang a s -> lang (Alt a b) s
| LAltR : forall a b s, lang b s -> lang (Alt a b) s
| LCat : forall a b s t, lang a s -> lang b t -> lang (Cat a b) (s ++ t)
| LStar0 : forall a, lang (Star a) []
| LStarS : forall a s t, lang a s -> lang (Star a) t -> lang (Star a) (s ++ t).

Fixpoint nullable (r : re) : bool :=
  match r with
  | Nul => false | Eps => true | Chr _ => false
  | Alt a b => nullable a || nullable b
  | Cat a b => nullable a && nullable b
  | Star _ => true
  end.
Fixpoint deriv (c : Z) (r : re) : re :=
  match r with
  | Nul => Nul | Eps => Nul
  | Chr p => if p c then Eps else Nul
  | Alt a b => Alt (deriv c a) (deriv c b)
  | Cat a b => Alt (Cat (deriv c a) b) (if nullable a then deriv c b else Nul)
  | Star a => Cat (deriv c a) (Star a)
  end.
Definition matches (r : re) (s : list Z) : bool := nullable (fold_left (fun r c => deriv c r) s r).

Lemma lang_nul : forall w, ~ lang Nul w.
Proof. intros w H. inversion H. Qed.
Lemma lang_eps : forall w, lang Eps w <-> w = [].
Proof. split; [inversion 1; reflexivity|intros ->; constructor]. Qed.
Lemma lang_chr : forall p w, lang (Chr p) w <-> exists c, w = [c] /\ p c = true.
Proof. split; [inversion 1; eauto|intros (c & -> & H); constructor; exact H]. Qed.
Lemma lang_alt : forall a b w, lang (Alt a b) w <-> lang a w \/ lang b w.
Proof. split; [inversion 1; auto|intros [H|H]; [apply LAltL|apply LAltR]; exact H]. Qed.
Lemma lang_cat : forall a b w, lang (Cat a b) w <-> exists s t, w = s ++ t /\ lang a s /\ lang b t.
Proof. split; [inversion 1; eauto|intros (s & t & -> & Hs & Ht); constructor; assumption]. Qed.
(* a non-empty string of a*: its first non-empty factor carries the first character *)
Lemma star_cons : forall a c s, lang (Star a) (c :: s) <->
  exists s1 s2, s = s1 ++ s2 /\ lang a (c :: s1) /\ lang (Star a) s2.
Proof.
  intros a c0 s0. split; [|intros (s1 & s2 & -> & H1 & H2); apply (LStarS a (c0 :: s1)); assumption].
  intros H. remember (Star a) as r eqn:Er. remember (c0 :: s0) as w eqn:Ew.
  revert c0 s0 Ew. induction H as [| | | | | |a' s1 t H1 _ H2 IH2]; intros c0 s0 Ew; try discriminate.
  injection Er as ->. destruct s1 as [|c1 s1']; cbn in Ew.
  - apply IH2; auto.
  - injection Ew as -> <-. exists s1', t. auto.
Qed.

Lemma nullable_lang : forall r, nullable r = true <-> lang r [].
Proof.
  induction r as [| |p|a IHa b IHb|a IHa b IHb|a IHa]; cbn [nullable].
  - split; [discriminate|intros []%lang_nul].
  - rewrite lang_eps. split; reflexivity.
  - rewrite lang_chr. split; [discriminate|intros (c & [=] & _)].
  - rewrite orb_true_iff, lang_alt, IHa, IHb. reflexivity.
  - rewrite andb_true_iff, lang_cat, IHa, IHb. split.
    + intros (Ha & Hb). exists [], []. auto.
    + intros (s & t & E & Hs & Ht). symmetry in E. apply app_eq_nil in E as (-> & ->). auto.
  - split; [constructor|reflexivity].
Qed.

Lemma deriv_lang : forall r c s, lang (deriv c r) s <-> lang r (c :: s).
Proof.
  induction r as [| |p|a IHa b IHb|a IHa b IHb|a IHa]; intros c s; cbn [deriv].
  - split; intros []%lang_nul.
  - rewrite lang_eps. split; [intros []%lang_nul|discriminate].
  - rewrite lang_chr. destruct (p c) eqn:E; [rewrite lang_eps|]; split.
    + intros ->. eauto.
    + intros (d & [= <- ->] & _). reflexivity.
    + intros []%lang_nul.
    + intros (d & [= <- ->] & H). congruence.
  - rewrite !lang_alt, IHa, IHb. reflexivity.
  - (* c :: s = s1 ++ t with s1 in a, t in b: either s1 is empty and c starts t, or c starts s1 *)
    rewrite lang_alt, !lang_cat. setoid_rewrite IHa. split.
    + intros [(s1 & t & -> & H1 & H2)|H].
      * exists (c :: s1), t. auto.
      * destruct (nullable a) eqn:N; [|destruct (lang_nul _ H)].
        exists [], (c :: s). split; [reflexivity|]. split; [apply nullable_lang, N|apply IHb, H].
    + intros ([|c1 s1] & t & E & H1 & H2); cbn in E.
      * subst t. right. apply nullable_lang in H1. rewrite H1. apply IHb, H2.
      * injection E as <- ->. left. eauto.
  - rewrite lang_cat, star_cons. setoid_rewrite IHa. reflexivity.
Qed.

Theorem matches_lang : forall r s, matches r s = true <-> lang r s.
Proof.
  unfold matches. intros r s. revert r. induction s as [|c s IH]; intros r; cbn [fold_left].
  - apply nullable_lang.
  - rewrite IH. apply deriv_lang.
Qed.

(* bounded quantifiers {n}, {n,}, {n,m}, ?, +, * by expansion *)
Fixpoint rep_exact (r : re) (n : nat) : re := match n with O => Eps | S k => Cat r (rep_exact r k) end.
Fixpoint rep_upto (r : re) (n : nat) : re := match n with O => Eps | S k => Alt Eps (Cat r (rep_upto r k)) end.
Definition quant (r : re) (n : nat) (m : option nat) : re :=
  match m with
  | None => Cat (rep_exact r n) (Star r)
  | Some m => Cat (rep_exact r n) (rep_upto r (m - n))
  end.
Inductive pow (r : re) : nat -> list Z -> Prop :=
| P0 : pow r 0 []
| PS : forall k s t, lang r s -> pow r k t -> pow r (S k) (s ++ t).

Lemma pow_0 : forall r w, pow r 0 w <-> w = [].
Proof. split; [inversion 1; reflexivity|intros ->; constructor]. Qed.
Lemma pow_S : forall r k w, pow r (S k) w <-> exists s t, w = s ++ t /\ lang r s /\ pow r k t.
Proof. split; [inversion 1; eauto|intros (s & t & -> & Hs & Ht); constructor; assumption]. Qed.
Lemma pow_add : forall r a b w, pow r (a + b) w <-> exists s t, w = s ++ t /\ pow r a s /\ pow r b t.
Proof.
  intros r. induction a as [|a IH]; intros b w; cbn [Nat.add].
  - setoid_rewrite pow_0. split; [intros P; exists [], w; auto|intros (s & t & -> & -> & Pt); exact Pt].
  - setoid_rewrite pow_S. setoid_rewrite IH. split.
    + intros (s1 & u & -> & H1 & s & t & -> & Ps & Pt). exists (s1 ++ s), t. rewrite app_assoc. eauto 10.
    + intros (u & t & -> & (s1 & s & -> & H1 & Ps) & Pt). exists s1, (s ++ t). rewrite app_assoc. eauto 10.
Qed.

Lemma rep_exact_pow : forall r n s, lang (rep_exact r n) s <-> pow r n s.
Proof.
  intros r. induction n as [|k IH]; intros s; cbn [rep_exact].
  - rewrite lang_eps, pow_0. reflexivity.
  - rewrite lang_cat, pow_S. setoid_rewrite IH. reflexivity.
Qed.
Lemma rep_upto_pow : forall r n s, lang (rep_upto r n) s <-> exists k, (k <= n)%nat /\ pow r k s.
Proof.
  intros r. induction n as [|n IH]; intros s; cbn [rep_upto].
  - rewrite lang_eps, <- (pow_0 r). split; [intros P; exists 0%nat; auto|]. intros (k & Hk & P). replace k with 0%nat in P by lia. exact P.
  - rewrite lang_alt, lang_eps, lang_cat. setoid_rewrite IH. split.
    + intros [->|(s1 & t & -> & H1 & k & Hk & P)].
      * exists 0%nat. split; [lia|constructor].
      * exists (S k). split; [lia|constructor; assumption].
    + intros ([|k] & Hk & P).
      * left. apply pow_0 in P. exact P.
      * right. apply pow_S in P as (s1 & t & -> & H1 & P). exists s1, t. split; [reflexivity|]. split; [exact H1|].
        exists k. split; [lia|exact P].
Qed.
Lemma star_pow : forall r s, lang (Star r) s <-> exists k, pow r k s.
Proof.
  intros r s. split.
  - intros H. remember (Star r) as q eqn:E. induction H as [| | | | | |a s1 t H1 _ H2 IH2]; try discriminate.
    + exists 0%nat. constructor.
    + injection E as ->. destruct (IH2 eq_refl) as (k & P). exists (S k). constructor; assumption.
  - intros (k & P). induction P; constructor; assumption.
Qed.

(* n repetitions followed by a tail of j repetitions, j among B: k repetitions, k - n among B *)
Lemma quant_by : forall r n q (B : nat -> Prop), (forall t, lang q t <-> exists j, B j /\ pow r j t) ->
  forall s, lang (Cat (rep_exact r n) q) s <-> exists k, ((n <= k)%nat /\ B (k - n)%nat) /\ pow r k s.
Proof.
  intros r n q B Hq s. rewrite lang_cat. setoid_rewrite rep_exact_pow. setoid_rewrite Hq. split.
  - intros (s1 & t & -> & P1 & j & Hj & P2). exists (n + j)%nat. replace (n + j - n)%nat with j by lia.
    split; [split; [lia|exact Hj]|]. apply pow_add. eauto.
  - intros (k & (Hk & Hj) & P). replace k with (n + (k - n))%nat in P by lia.
    apply pow_add in P as (s1 & t & -> & P1 & P2). eauto 8.
Qed.
(* all of {n,m} and {n,}; with m < n the expansion means exactly n repetitions *)
Theorem quant_pow : forall r n m s, lang (quant r n m) s <->
  exists k, ((n <= k)%nat /\ match m with Some m => (k - n <= m - n)%nat | None => True end) /\ pow r k s.
Proof.
  intros r n [m|] s; cbn [quant].
  - apply (quant_by r n _ (fun j => j <= m - n)%nat), rep_upto_pow.
  - apply (quant_by r n _ (fun _ => True)). intros t. rewrite star_pow. split; intros (k & P); exists k; tauto.
Qed.
