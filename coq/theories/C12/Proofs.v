From Coq Require Import ZArith List Bool Arith Lia.
From EP Require Import Common.Lists C13.Proofs C12.Regex C12.Classes C12.Model.
Import ListNotations.
Open Scope Z_scope.

Lemma cls_impl_spec : forall c, cls_ok c -> denotes (cls_impl c) (cls_spec c).
Proof.
  fix IH 1. intros [ng ps sb] (Hps & Hsb). pose proof (build_ok ps Hps) as B.
  destruct ng; [apply complement_ok in B|]; (destruct sb as [s|]; [exact (isub_cc_ok _ _ _ _ B (IH s Hsb))|exact B]).
Qed.

Lemma part_okb_ok : forall p, part_okb p = true -> part_ok p.
Proof.
  intros [l|l]; cbn [part_okb part_ok]; [apply wfb_WF|]. rewrite andb_true_iff, wfb_WF.
  destruct l; cbn; intuition discriminate.
Qed.
Lemma cls_okb_ok : forall c, cls_okb c = true -> cls_ok c.
Proof.
  fix IH 1. intros [ng ps sb]. cbn [cls_okb cls_ok]. rewrite andb_true_iff, forallb_forall, Forall_forall.
  intros (H1 & H2). split; [intros p Hp; apply part_okb_ok, H1, Hp|destruct sb; auto].
Qed.
Lemma rx_okb_ok : forall r, rx_okb r = true -> rx_ok r.
Proof. induction r; cbn [rx_okb rx_ok]; rewrite ?andb_true_iff; auto using cls_okb_ok; tauto. Qed.

(* expressions with the same language; the forms that to_re and wrap build respect it *)
Definition same_lang (r r' : re) : Prop := forall s, lang r s <-> lang r' s.
Lemma same_refl : forall r, same_lang r r.
Proof. intros r s. reflexivity. Qed.
Lemma same_chr : forall p q, (forall x, p x = q x) -> same_lang (Chr p) (Chr q).
Proof. intros p q H s. rewrite !lang_chr. setoid_rewrite H. reflexivity. Qed.
Lemma same_alt : forall a a' b b', same_lang a a' -> same_lang b b' -> same_lang (Alt a b) (Alt a' b').
Proof. intros a a' b b' Ha Hb s. rewrite !lang_alt, (Ha s), (Hb s). reflexivity. Qed.
Lemma same_cat : forall a a' b b', same_lang a a' -> same_lang b b' -> same_lang (Cat a b) (Cat a' b').
Proof. intros a a' b b' Ha Hb s. rewrite !lang_cat. setoid_rewrite (Ha _). setoid_rewrite (Hb _). reflexivity. Qed.
Lemma same_pow : forall r r', same_lang r r' -> forall k s, pow r k s <-> pow r' k s.
Proof.
  intros r r' H k s. rewrite <- !rep_exact_pow. revert s.
  induction k; cbn [rep_exact]; [apply same_refl|apply same_cat; assumption].
Qed.
(* a quantified expression speaks of its body through pow only *)
Lemma same_quant : forall r r' n m, same_lang r r' -> same_lang (quant r n m) (quant r' n m).
Proof.
  intros r r' n m H s. rewrite !quant_pow. setoid_rewrite (same_pow _ _ H). reflexivity.
Qed.
Lemma matches_same : forall r r' s, same_lang r r' -> matches r s = matches r' s.
Proof. intros r r' s H. apply eq_iff_eq_true. rewrite !matches_lang. apply H. Qed.

Lemma to_re_same : forall dotall r, rx_ok r -> escapes_faithful r ->
  same_lang (to_re true (fun c => mem (cls_impl c)) dotall r) (to_re false cls_spec dotall r).
Proof.
  intros dotall. induction r; cbn [to_re rx_ok escapes_faithful]; intros H F; try apply same_refl.
  - apply same_chr. intros x. rewrite F. reflexivity.
  - apply same_chr. intros x. destruct (in_cp x) eqn:E; [|reflexivity]. apply (cls_impl_spec c H). unfold in_cp, cp in *. lia.
  - apply same_cat; tauto.
  - apply same_alt; tauto.
  - apply same_quant. auto.
Qed.

(* analyze-string: the parts concatenate to the input *)
Fixpoint spans_ok (pos : nat) (spans : list (nat * nat)) : Prop :=
  match spans with [] => True | (a, b) :: r => (pos <= a <= b)%nat /\ spans_ok b r end.
Lemma cut_concat : forall spans s pos, spans_ok pos spans -> concat (map snd (cut s pos spans)) = s.
Proof.
  induction spans as [|[a b] r IH]; intros s pos H; cbn [cut map concat snd].
  - apply app_nil_r.
  - destruct H as (Hab & Hr). rewrite (IH _ _ Hr).
    replace (b - pos)%nat with ((a - pos) + (b - a))%nat by lia. rewrite skipn_add.
    rewrite (firstn_skipn (b - a) (skipn (a - pos) s)). apply firstn_skipn.
Qed.
(* tokenize returns the non-match parts, replace with "$0" puts the match parts back: both are projections of cut *)
Definition non_match_parts (s : list Z) (spans : list (nat * nat)) : list (list Z) :=
  map snd (filter (fun p => negb (fst p)) (cut s 0 spans)).
Definition replace_with_match (s : list Z) (spans : list (nat * nat)) : list Z := concat (map snd (cut s 0 spans)).
