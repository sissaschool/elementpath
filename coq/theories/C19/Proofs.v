From Coq Require Import Arith List Bool Lia ZifyBool.
From EP Require Import C19.Model.
Import ListNotations.

Section Collation.
Variable avail : nat -> bool.

(* one block, entered with the lock free: lock free and locale restored afterwards, whatever setlocale does and
   whatever the body does *)
Lemma block_restores : forall c s, locked s = false -> block (enter avail) c s = s.
Proof.
  intros c [lk l] H. cbn in H. subst lk. unfold block. destruct c as [|n fb]; cbn; [reflexivity|].
  destruct (avail n); [reflexivity|]. destruct (fb && avail EN_US); reflexivity.
Qed.

(* invariant: the lock is held iff exactly one thread is inside a locale block; when none is, LC_COLLATE is the
   initial locale; a thread inside remembers the initial locale *)
Definition count_inside (ts : list tstate) : nat := length (filter inside ts).
Definition remembers (init : nat) (t : tstate) : Prop :=
  match t with Inside (Some old) _ => old = init | _ => True end.
Definition inv (init : nat) (w : world) : Prop :=
  let '(s, ts) := w in
  (locked s = true -> count_inside ts = 1) /\ (locked s = false -> count_inside ts = 0 /\ lc s = init) /\
  Forall (remembers init) ts.

Lemma count_inside_cons : forall t r, count_inside (t :: r) = Nat.b2n (inside t) + count_inside r.
Proof. intros. cbn. destruct (inside t); reflexivity. Qed.
Lemma count_inside_app : forall a b, count_inside (a ++ b) = count_inside a + count_inside b.
Proof. intros. unfold count_inside. rewrite filter_app, app_length. reflexivity. Qed.
Lemma count_inside_none : forall ts, Forall (fun t => inside t = false) ts -> count_inside ts = 0.
Proof. induction 1 as [|t r Ht _ IH]; [reflexivity|]. rewrite count_inside_cons, Ht, IH. reflexivity. Qed.

(* the lock counts the threads inside *)
Lemma inv_iff : forall init s ts, inv init (s, ts) <->
  count_inside ts = Nat.b2n (locked s) /\ (locked s = false -> lc s = init) /\ Forall (remembers init) ts.
Proof.
  intros. unfold inv. destruct (locked s); split; intros (A & B & C); try destruct (B eq_refl);
    repeat split; auto; discriminate.
Qed.

(* a step of a thread leaves (lock held) - (threads inside) as it is; the last hypothesis holds under inv, where a free
   lock means that nobody is inside *)
Lemma tstep_effect : forall init s t s' t', tstep avail s t = Some (s', t') -> remembers init t ->
  (locked s = false -> lc s = init) -> (inside t = true -> locked s = true) ->
  remembers init t' /\ (locked s' = false -> lc s' = init) /\
  Nat.b2n (locked s') + Nat.b2n (inside t) = Nat.b2n (locked s) + Nat.b2n (inside t').
Proof.
  intros init s t s' t' H Hr Hl Hi. destruct t as [[|[|l fb] r]|[old|] r]; cbn in H; try discriminate.
  - injection H as <- <-. auto.
  - destruct (locked s); [discriminate|].
    destruct (avail l); [|destruct (fb && avail EN_US)]; injection H as <- <-; cbn; intuition congruence.
  - injection H as <- <-. cbn in *. rewrite Hi; auto.
  - injection H as <- <-. auto.
Qed.

Lemma step_at_split : forall ts i s s' ts', step_at avail i s ts = Some (s', ts') ->
  exists pre t t' post, ts = pre ++ t :: post /\ ts' = pre ++ t' :: post /\ tstep avail s t = Some (s', t').
Proof.
  induction ts as [|x r IH]; intros i s s' ts' H; [destruct i; discriminate|].
  destruct i as [|j]; cbn in H.
  - destruct (tstep avail s x) as [[s1 t1]|] eqn:E; [|discriminate]. injection H as <- <-.
    exists [], x, t1, r. auto.
  - destruct (step_at avail j s r) as [[s1 r1]|] eqn:E; [|discriminate]. injection H as <- <-.
    destruct (IH j s s1 r1 E) as (pre & t & t' & post & -> & -> & Ht).
    exists (x :: pre), t, t', post. auto.
Qed.
Lemma step_at_mid : forall pre t post s s' t', tstep avail s t = Some (s', t') ->
  step_at avail (length pre) s (pre ++ t :: post) = Some (s', pre ++ t' :: post).
Proof. intros pre t post s s' t' H. induction pre as [|x r IH]; cbn; [rewrite H|rewrite IH]; reflexivity. Qed.

Lemma step_at_inv : forall init i s ts s' ts', step_at avail i s ts = Some (s', ts') -> inv init (s, ts) -> inv init (s', ts').
Proof.
  intros init i s ts s' ts' H. rewrite !inv_iff. intros (A & B & C).
  destruct (step_at_split ts i s s' ts' H) as (pre & t & t' & post & -> & -> & Ht).
  rewrite count_inside_app, count_inside_cons in *.
  apply Forall_app in C. destruct C as (Cpre & Cpost). inversion Cpost as [|? ? Rt Cpost'].
  destruct (tstep_effect init s t s' t' Ht Rt B ltac:(lia)) as (R & L & E).
  split; [lia|]. split; [exact L|]. apply Forall_app; auto.
Qed.

Lemma run_inv : forall init sched w, inv init w -> inv init (run avail sched w).
Proof.
  induction sched as [|i r IH]; intros [s ts] H; cbn [run]; auto. cbn [fst snd].
  destruct (step_at avail i s ts) as [[s' ts']|] eqn:E; apply IH; auto. eapply step_at_inv; eauto.
Qed.

(* who can move: the thread inside, and with the lock free every unfinished thread *)
Lemma tstep_enabled : forall s t, inside t = true \/ locked s = false /\ finished t = false ->
  exists w, tstep avail s t = Some w.
Proof.
  intros s t H. destruct t as [[|[|l fb] r]|saved r]; cbn [tstep inside finished] in *; eauto.
  - destruct H as [H|(_ & H)]; discriminate.
  - destruct H as [H|(-> & _)]; [discriminate|]. destruct (enter avail (Loc l fb) s) as ([saved|] & s1); eauto.
Qed.

(* when the lock is free in a reachable world the global state IS the initial one, so __enter__ takes the same
   decision and installs the same locale as in a sequential run from the initial state *)
Lemma free_state_is_initial : forall init s ts, inv init (s, ts) -> locked s = false -> s = mkg false init.
Proof. intros init [lk l] ts (_ & B & _) L. cbn in L. subst lk. destruct (B eq_refl) as (_ & E). cbn in E. subst l. reflexivity. Qed.
(* while a thread is inside a locale block no step of another thread changes the global state *)
Lemma others_do_not_disturb : forall s t s' t', tstep avail s t = Some (s', t') -> locked s = true -> inside t = false -> s' = s.
Proof.
  intros s t s' t' H L I. destruct t as [[|[|l fb] r]|[old|] r]; cbn in H, I; try discriminate.
  - injection H as <- <-. reflexivity.
  - rewrite L in H. discriminate.
  - injection H as <- <-. reflexivity.
Qed.
End Collation.
