From Coq Require Import Arith List Bool.
From EP Require Import C19.Model C19.Proofs.
From EP Require Gen.C19Shape.
Import ListNotations.

(* every collation block leaves the lock free and LC_COLLATE as it found it: any setlocale oracle, any collation
   argument, any body outcome; and so does every sequence of blocks *)
Theorem C19_lock_locale_restored : forall (avail : nat -> bool) cs s, locked s = false ->
  fold_left (fun st c => block (enter avail) c st) cs s = s.
Proof.
  intros avail cs. induction cs as [|c r IH]; intros s H; cbn; auto. rewrite block_restores by exact H. apply IH. exact H.
Qed.
Print Assumptions C19_lock_locale_restored.

(* FULL STATEMENT held for the pinned code only with enter := enter_prefix; it was false: with an unavailable language,
   fallback requested and no en_US.UTF-8 the lock stayed held (fixed in /repo) *)
Theorem C19_prefix_refuted : forall avail, avail 1 = false -> avail EN_US = false ->
  locked (block (enter_prefix avail) (Loc 1 true) (mkg false 7)) = true.
Proof. intros avail H1 H0. unfold block, enter_prefix. rewrite H1, H0. reflexivity. Qed.
Print Assumptions C19_prefix_refuted.

(* threads: in every interleaving the lock is held iff exactly one thread is inside a locale block, LC_COLLATE is the
   initial locale whenever no thread is inside ... *)
Theorem C19_mutex : forall avail init sched ts, Forall (fun t => match t with Idle _ => True | _ => False end) ts ->
  inv init (run avail sched (mkg false init, ts)).
Proof.
  intros avail init sched ts H. apply run_inv. rewrite inv_iff.
  (* an idle thread is not inside and has nothing to remember *)
  split; [|split].
  - apply count_inside_none. eapply Forall_impl; [|exact H]. intros [todo|saved todo] Ht; [reflexivity|destruct Ht].
  - reflexivity.
  - eapply Forall_impl; [|exact H]. intros [todo|saved todo] Ht; [exact I|destruct Ht].
Qed.
Print Assumptions C19_mutex.
(* ... and there is no deadlock: while a thread is unfinished some thread can move *)
Theorem C19_no_deadlock : forall avail init s ts, inv init (s, ts) -> existsb (fun t => negb (finished t)) ts = true ->
  exists i w', step_at avail i s ts = Some w'.
Proof.
  intros avail init s ts H Hunf. apply inv_iff in H. destruct H as (A & _).
  assert (exists t, In t ts /\ (inside t = true \/ locked s = false /\ finished t = false)) as (t & Hin & Ht).
  { destruct (locked s).
    - (* the lock is held: the thread inside can always leave *)
      unfold count_inside in A. destruct (filter inside ts) as [|t f] eqn:F; [discriminate|].
      assert (Hin : In t (filter inside ts)) by (rewrite F; left; reflexivity).
      apply filter_In in Hin. destruct Hin. eauto.
    - (* the lock is free: any unfinished thread can move *)
      apply existsb_exists in Hunf. destruct Hunf as (t & Hin & Hf). apply negb_true_iff in Hf. eauto. }
  destruct (tstep_enabled avail s t Ht) as ((s' & t') & Hw). apply in_split in Hin. destruct Hin as (pre & post & ->).
  eauto using step_at_mid.
Qed.
Print Assumptions C19_no_deadlock.

(* concurrent = sequential: in every reachable world with the lock free the global state is the initial one, so the
   __enter__ of any thread decides and installs exactly what it does in a sequential run; and while a thread is inside
   its locale block no step of any other thread changes the lock or LC_COLLATE: the body of a block sees the same
   locale in every interleaving *)
Theorem C19_concurrent_as_sequential : forall avail init sched ts0 c,
  Forall (fun t => match t with Idle _ => True | _ => False end) ts0 ->
  forall w, w = run avail sched (mkg false init, ts0) ->
  (locked (fst w) = false -> enter avail c (fst w) = enter avail c (mkg false init)) /\
  (forall t s' t', In t (snd w) -> tstep avail (fst w) t = Some (s', t') -> locked (fst w) = true -> inside t = false -> s' = fst w).
Proof.
  intros avail init sched ts0 c H w Hw. pose proof (C19_mutex avail init sched ts0 H) as I. rewrite <- Hw in I. destruct w as [s ts].
  split.
  - intros L. rewrite (free_state_is_initial init s ts I L). reflexivity.
  - intros t s' t' _ Ht L In_. eapply others_do_not_disturb; eauto.
Qed.
Print Assumptions C19_concurrent_as_sequential.

(* ... and when all threads have finished, in whatever order they ran, the process-global state is exactly the one
   found at the start: lock free, LC_COLLATE restored *)
Theorem C19_quiescent_state_initial : forall avail init sched ts0,
  Forall (fun t => match t with Idle _ => True | _ => False end) ts0 ->
  forall w, w = run avail sched (mkg false init, ts0) -> forallb finished (snd w) = true -> fst w = mkg false init.
Proof.
  intros avail init sched ts0 H w Hw F. pose proof (C19_mutex avail init sched ts0 H) as I. rewrite <- Hw in I.
  destruct w as [s ts]. apply (free_state_is_initial init s ts I).
  (* nobody is inside, so the lock is free *)
  apply inv_iff in I. destruct I as (A & _). rewrite count_inside_none in A.
  - destruct (locked s); [discriminate|reflexivity].
  - apply Forall_forall. intros t Ht. rewrite forallb_forall in F. specialize (F t Ht).
    destruct t as [todo|[old|] todo]; [reflexivity|discriminate|reflexivity].
Qed.
Print Assumptions C19_quiescent_state_initial.

Example C19_nonvacuous :
  let avail := fun l => Nat.eqb l 3 in
  run avail [0; 1; 1; 0; 0; 1; 1; 0; 1] (mkg false 9, [Idle [Loc 3 false; Loc 5 true]; Idle [NoLocale; Loc 3 true]])
  = (mkg false 9, [Idle []; Idle []]).
Proof. vm_compute. reflexivity. Qed.

(* the statements of /repo that the hand model mirrors are present in the source as read on this run (T-data,
   harness/shape.py -> Gen/C19Shape.v) *)
Theorem C19_source_shape : Gen.C19Shape.shape_ok = true.
Proof. reflexivity. Qed.
Print Assumptions C19_source_shape.
