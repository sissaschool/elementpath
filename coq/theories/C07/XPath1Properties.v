From Coq Require Import ZArith List Bool.
From EP Require Import Common.Lists C15.Keys C07.Model C07.XPath1.
Import ListNotations.
Open Scope Z_scope.

Lemma num_eq1_sym : forall a b, num_eq1 a b = num_eq1 b a.
Proof. intros [n d| | |] [n' d'| | |]; auto. apply Z.eqb_sym. Qed.
Lemma cmp_num_flip : forall o a b, cmp_num o a b = cmp_num (flip o) b a.
Proof. intros o a b. destruct o; cbn; rewrite ?(num_eq1_sym a b); reflexivity. Qed.
Lemma cmp_str_flip : forall o a b, cmp_str o a b = cmp_str (flip o) b a.
Proof. intros o a b. destruct o; try apply cmp_num_flip; cbn; rewrite Z.eqb_sym; reflexivity. Qed.
Lemma cmp_bool_flip : forall o a b, cmp_bool o a b = cmp_bool (flip o) b a.
Proof. intros o a b. destruct o, a, b; reflexivity. Qed.
Lemma existsb_swap : forall (A B : Type) (f : A -> B -> bool) l1 l2,
  existsb (fun s => existsb (fun t => f s t) l2) l1 = existsb (fun t => existsb (fun s => f s t) l1) l2.
Proof.
  intros A B f l1 l2. apply eq_iff_eq_true. rewrite !existsb_exists.
  split; intros (x & Hx & H); apply existsb_exists in H as (y & Hy & H); exists y; (split; [exact Hy|]);
    apply existsb_exists; eauto.
Qed.

Lemma is_eqop_flip : forall o, is_eqop (flip o) = is_eqop o.
Proof. intros []; reflexivity. Qed.
Lemma scalar_flip : forall o a b, compare_scalar o a b = compare_scalar (flip o) b a.
Proof.
  intros o a b. unfold compare_scalar. rewrite is_eqop_flip.
  destruct (is_eqop o); [destruct a, b|]; auto using cmp_bool_flip, cmp_num_flip, cmp_str_flip.
Qed.
(* a op b = b op' a where op' is the mirrored operator: = and != are symmetric, < mirrors > *)
Theorem C07_xpath1_mirror : forall o a b, compare1 o a b = compare1 (flip o) b a.
Proof.
  intros o a b. destruct a as [x|x|x|l], b as [y|y|y|m]; cbn [compare1];
    auto using scalar_flip, cmp_bool_flip, existsb_ext, cmp_num_flip, cmp_str_flip.
  rewrite existsb_swap. auto using existsb_ext, cmp_str_flip.
Qed.
Print Assumptions C07_xpath1_mirror.

(* a node-set compares like some node of it: existential semantics against numbers and strings *)
Theorem C07_xpath1_nodeset_exists : forall o l v t,
  compare1 o (ONodes l) (ONum v) = existsb (fun s => compare1 o (ONum (asnum s)) (ONum v)) l /\
  compare1 Eq (ONodes l) (OStr t) = existsb (fun s => compare1 Eq (OStr s) (OStr t)) l /\
  compare1 o (ONodes l) (OBool true) = cmp_bool o (match l with [] => false | _ => true end) true.
Proof.
  intros o l v t. split; [|split; reflexivity].
  apply existsb_ext. intros s. destruct o; reflexivity.
Qed.
Print Assumptions C07_xpath1_nodeset_exists.
(* on scalars != is the negation of =; on node-sets both can hold at once *)
Theorem C07_xpath1_ne : (forall a b, (forall l, a <> ONodes l) -> (forall l, b <> ONodes l) ->
                           compare1 Ne a b = negb (compare1 Eq a b)) /\
  (exists a b, compare1 Ne a b = true /\ compare1 Eq a b = true).
Proof.
  split.
  - intros a b Ha Hb. destruct a as [x|x|x|l]; [| | |destruct (Ha l eq_refl)];
      (destruct b as [y|y|y|m]; [| | |destruct (Hb m eq_refl)]); reflexivity.
  - exists (ONodes [mkstr 1 (NFin 1 1) true; mkstr 2 (NFin 2 1) true]), (ONum (NFin 1 1)). split; reflexivity.
Qed.
Print Assumptions C07_xpath1_ne.
Example C07_xpath1_nonvacuous :
  compare1 Eq (ONodes []) (OBool false) = true /\ compare1 Lt (OBool true) (ONum (NFin 2 1)) = true /\
  compare1 Eq (ONodes [mkstr 5 NNaN true; mkstr 1 (NFin 1 1) true]) (ONum (NFin 1 1)) = true /\
  compare1 Lt (ONum (NFin 0 1)) (OStr (mkstr 5 NNaN true)) = false /\ compare1 Eq (OStr (mkstr 1 (NFin 1 1) true)) (ONum (NFin 1 1)) = true.
Proof. repeat split; reflexivity. Qed.
