From Coq Require Import ZArith List Bool.
From EP Require Gen.C07Shape.
From EP Require Import C07.Model C09.Model C09.Proofs.
Import ListNotations.

(* A op B is true exactly when some pair (a, b) satisfies the value comparison *)
Theorem C07_general_exists : forall (A : Type) (cmp : A -> A -> bool) l r,
  general A cmp l r = true <-> exists a b, In a l /\ In b r /\ cmp a b = true.
Proof.
  intros A cmp l r. unfold general. rewrite existsb_exists. split.
  - intros ((a, b) & Hin & Hc). apply in_prod_iff in Hin. exists a, b. tauto.
  - intros (a & b & Ha & Hb & Hc). exists (a, b). split; [apply in_prod_iff; tauto|exact Hc].
Qed.
Print Assumptions C07_general_exists.

(* effective boolean value of every sequence = the F&O table *)
Theorem C07_ebv : forall l, ebv l = ebv_spec l.
Proof. intros [|[| b | n | z |] [|j r]]; reflexivity. Qed.
Print Assumptions C07_ebv.

(* and / or / not over effective boolean values obey Boolean algebra (on the non-error values) *)
Theorem C07_boolean_algebra : forall a b c : bool,
  negb (a && b) = negb a || negb b /\ negb (a || b) = negb a && negb b /\ (a && (b || c)) = (a && b) || (a && c) /\
  negb (negb a) = a /\ (if a then b else c) = (a && b) || (negb a && c).
Proof. intros [|] [|] [|]; repeat split. Qed.
Print Assumptions C07_boolean_algebra.

(* value comparison on strings is the code-point total order (C09's compare) *)
Theorem C07_string_order : forall a b c,
  compare_cp a a = 0%Z /\ compare_cp b a = (- compare_cp a b)%Z /\ (compare_cp a b = 0%Z <-> a = b) /\
  (compare_cp a b = (-1)%Z -> compare_cp b c = (-1)%Z -> compare_cp a c = (-1)%Z).
Proof.
  intros a b c.
  exact (conj (compare_cp_refl a) (conj (compare_cp_antisym a b) (conj (compare_cp_eq a b) (compare_cp_trans a b c)))).
Qed.
Print Assumptions C07_string_order.

(* all_ops and all_ty list every constructor, so two decision tables over (operator, type, type) are equal if they
   agree on the enumeration *)
Lemma all_ops_complete : forall o, In o all_ops.
Proof. intros []; repeat ((left; reflexivity) || right). Qed.
Lemma all_ty_complete : forall a, In a all_ty.
Proof. intros []; repeat ((left; reflexivity) || right). Qed.
Lemma table_sweep : forall f g : vop -> ty -> ty -> bool,
  forallb (fun o => forallb (fun a => forallb (fun b => eqb (f o a b) (g o a b)) all_ty) all_ty) all_ops = true ->
  forall o a b, f o a b = g o a b.
Proof.
  intros f g H o a b. apply eqb_prop.
  rewrite forallb_forall in H. specialize (H o (all_ops_complete o)).
  rewrite forallb_forall in H. specialize (H a (all_ty_complete a)).
  rewrite forallb_forall in H. exact (H b (all_ty_complete b)).
Qed.

(* XPTY0004 exactly for the incomparable type pairs: for every operator and pair of types the code (the chain of
   isinstance tests followed by the Python operator) yields a value iff F&O defines the comparison, for the 2.0 / 3.0
   operator mapping and for the 3.1 one (ordered binaries) *)
Theorem C07_type_table : forall v31 o a b, vc_defined v31 o a b = vc_spec v31 o a b.
Proof. intros []; apply table_sweep; vm_compute; reflexivity. Qed.
Print Assumptions C07_type_table.
(* before the repairs: strings and untypedAtomic were compared with QNames and xs:gYear values were ordered *)
Theorem C07_type_table_old_disagreements :
  vc_old_disagreements =
  [(Eq, TStr, TQName); (Eq, TUntyped, TQName); (Eq, TQName, TStr); (Eq, TQName, TUntyped);
   (Ne, TStr, TQName); (Ne, TUntyped, TQName); (Ne, TQName, TStr); (Ne, TQName, TUntyped);
   (Lt, TGYear, TGYear); (Le, TGYear, TGYear); (Gt, TGYear, TGYear); (Ge, TGYear, TGYear)].
Proof. vm_compute. reflexivity. Qed.
Print Assumptions C07_type_table_old_disagreements.

(* the same for general comparisons: XPTY0004 exactly when the value comparison that applies after the untypedAtomic
   conversion rules is undefined *)
Theorem C07_general_type_table : forall v31 o a b, gc_defined v31 o a b = gc_spec v31 o a b.
Proof. intros []; apply table_sweep; vm_compute; reflexivity. Qed.
Print Assumptions C07_general_type_table.

(* and with the XPath 1.0 compatibility mode switched on *)
Theorem C07_general_type_table_compat : forall v31 o a b, gc_compat_defined v31 o a b = gc_compat_spec v31 o a b.
Proof. intros v31 o a b. unfold gc_compat_defined. rewrite C07_general_type_table. reflexivity. Qed.
Print Assumptions C07_general_type_table_compat.

Example C07_nonvacuous : ebv [IStr 0] = EBV false /\ ebv [INode; IOther] = EBV true /\ ebv [INum false; INum false] = FORG0006 /\
  vc_defined true Lt TInt TDbl = true /\ vc_defined false Eq TBool TInt = false /\ vc_defined true Lt THex THex = true /\
  vc_defined false Lt THex THex = false /\ general Z Z.ltb [5; 1]%Z [0; 3]%Z = true.
Proof. vm_compute. repeat split; reflexivity. Qed.

(* the statements of /repo that the decision tables of C07/Model.v mirror are present in the source as read on this run
   (T-data, harness/shape.py -> Gen/C07Shape.v) *)
Theorem C07_source_shape : Gen.C07Shape.shape_ok = true.
Proof. reflexivity. Qed.
Print Assumptions C07_source_shape.
