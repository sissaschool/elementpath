From Coq Require Import ZArith List Lia.
From EP Require Import C15.Keys C07.Model C07.XPath1 C07.XPath1Arith.
Import ListNotations.
Open Scope Z_scope.

Lemma nop_nan_l : forall o b, nop o NNaN b = NNaN.
Proof. intros [] b; reflexivity. Qed.
Lemma nop_nan_r : forall o a, nop o a NNaN = NNaN.
Proof. intros [] []; reflexivity. Qed.

(* an empty node-set operand makes every arithmetic result NaN (number() of an empty node-set), on either side and for unary minus *)
Theorem C07_xpath1_arithmetic_empty_nodeset_is_nan : forall o b,
  arith1 o (ONodes []) b = NNaN /\ arith1 o b (ONodes []) = NNaN /\ neg1 (ONodes []) = NNaN.
Proof. intros o b. exact (conj (nop_nan_l o _) (conj (nop_nan_r o _) eq_refl)). Qed.
Print Assumptions C07_xpath1_arithmetic_empty_nodeset_is_nan.

Lemma nsame_refl : forall v, nsame v v = true.
Proof. intros [n d| | |]; cbn; auto using Z.eqb_refl. Qed.
Lemma nadd_comm : forall a b, nadd a b = nadd b a.
Proof. intros [n1 d1| | |] [n2 d2| | |]; cbn; try reflexivity. rewrite Z.add_comm, Pos.mul_comm. reflexivity. Qed.
Lemma nmul_comm : forall a b, nmul a b = nmul b a.
Proof.
  intros [n1 d1| | |] [n2 d2| | |]; cbn [nmul nsgn];
    rewrite ?(Z.mul_comm (Z.sgn _)), ?(Z.mul_comm n1), ?(Pos.mul_comm d1); reflexivity.
Qed.
(* NaN is absorbing; + and * are commutative (same value); a - b = a + (-b) *)
Theorem C07_xpath1_arithmetic_laws : forall a b,
  (forall o, nop o NNaN b = NNaN /\ nop o a NNaN = NNaN) /\
  nsame (nadd a b) (nadd b a) = true /\ nsame (nmul a b) (nmul b a) = true /\ nsub a b = nadd a (nneg b).
Proof.
  intros a b. rewrite (nadd_comm a b), (nmul_comm a b), !nsame_refl.
  auto using nop_nan_l, nop_nan_r.
Qed.
Print Assumptions C07_xpath1_arithmetic_laws.

(* division by zero never fails: 0 div 0 is NaN, a positive / negative value gives INF / -INF; the quotient of finite values
   multiplied by the divisor is the dividend *)
Theorem C07_xpath1_division : forall n d,
  ndiv (NFin 0 d) (NFin 0 1) = NNaN /\
  (0 < n -> ndiv (NFin n d) (NFin 0 1) = NPInf) /\ (n < 0 -> ndiv (NFin n d) (NFin 0 1) = NNInf) /\
  (forall n2 d2, n2 <> 0 -> nsame (nmul (ndiv (NFin n d) (NFin n2 d2)) (NFin n2 d2)) (NFin n d) = true).
Proof.
  intros n d. split; [reflexivity|]. split; [|split].
  - intros H. cbn. rewrite (Z.sgn_pos n H). reflexivity.
  - intros H. cbn. rewrite (Z.sgn_neg n H). reflexivity.
  - intros n2 d2 H. cbn. rewrite (proj2 (Z.eqb_neq _ _) H). apply Z.eqb_eq.
    rewrite !Pos2Z.inj_mul, Z2Pos.id, <- (Z.sgn_abs n2) by lia. ring.
Qed.
Print Assumptions C07_xpath1_division.

Example C07_xpath1_arith_nonvacuous :
  arith1 APlus (ONum (NFin 1 1)) (ONodes []) = NNaN /\
  nsame (arith1 ADiv (OBool true) (OStr (mkstr 0 (NFin 2 1) true))) (NFin 1 2) = true /\
  arith1 ATimes (ONum NPInf) (ONum (NFin 0 1)) = NNaN /\ arith1 ADiv (ONum (NFin (-1) 1)) (ONum (NFin 0 1)) = NNInf.
Proof. repeat split; reflexivity. Qed.
