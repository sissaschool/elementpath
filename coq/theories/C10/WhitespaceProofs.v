From Coq Require Import ZArith List Lia ZifyBool.
From EP Require Import C10.Whitespace.
Import ListNotations.
Open Scope Z_scope.

Definition nonws (c : Z) : bool := negb (is_ws c).

Lemma collapse_aux_content : forall s p st, filter nonws (collapse_aux s p st) = filter nonws s.
Proof.
  induction s as [|c r IH]; intros p st; [reflexivity|]. cbn [collapse_aux filter]. unfold nonws at 2.
  destruct (is_ws c) eqn:W; [apply IH|]. rewrite filter_app. cbn [filter negb]. unfold nonws at 2. rewrite W, IH.
  destruct p; reflexivity.
Qed.

(* after an emitted character (started = true), whatever is pending *)
Lemma collapse_aux_collapsed : forall s p, collapsed_from false (collapse_aux s p true) = true.
Proof.
  induction s as [|c r IH]; intros p; [reflexivity|]. cbn [collapse_aux].
  destruct (is_ws c) eqn:W; [apply IH|]. destruct p; cbn [app collapsed_from]; rewrite W; apply IH.
Qed.
Lemma collapse_collapsed : forall s, collapsed (collapse s) = true.
Proof.
  intros s. unfold collapse. induction s as [|c r IH]; [reflexivity|]. cbn [collapse_aux].
  destruct (is_ws c) eqn:W; [exact IH|]. cbn [app collapsed collapsed_from]. rewrite W. apply collapse_aux_collapsed.
Qed.

(* on a collapsed string the pending flag of collapse_aux is the prev_ws of collapsed_from: the space it stands for
   is the only thing collapse_aux adds *)
Lemma collapse_aux_fixed : forall s p, collapsed_from p s = true -> collapse_aux s p true = (if p then [32] else []) ++ s.
Proof.
  induction s as [|c r IH]; intros p H; cbn [collapsed_from collapse_aux] in *; [destruct p; [discriminate|reflexivity]|].
  destruct (is_ws c).
  - destruct p; [discriminate|]. rewrite (IH true) by lia. cbn [app]. f_equal. lia.
  - rewrite (IH false H). reflexivity.
Qed.
Lemma collapse_fixed : forall s, collapsed s = true -> collapse s = s.
Proof.
  intros [|c r] H; [reflexivity|]. unfold collapsed in H. unfold collapse. cbn [collapsed_from collapse_aux] in *.
  destruct (is_ws c); [discriminate|]. rewrite (collapse_aux_fixed r false H). reflexivity.
Qed.
