From Coq Require Import ZArith List Bool Lia.
From EP Require Import C15.Keys C10.CastValue.
Import ListNotations.
Open Scope Z_scope.

(* casting to xs:integer truncates toward zero: value = result + a fraction of magnitude < 1 with the sign of the value *)
Theorem C10_cast_integer_truncates : forall n d z, cast_integer (NFin n d) = Some z ->
  exists r, n = Zpos d * z + r /\ Z.abs r < Zpos d /\ 0 <= r * n.
Proof.
  intros n d z H. cbn in H. injection H as <-. exists (Z.rem n (Zpos d)).
  split; [apply Z.quot_rem'|]. split.
  - pose proof (Z.rem_bound_abs n (Zpos d)) as B. lia.
  - apply Z.rem_sign_mul. lia.
Qed.
Print Assumptions C10_cast_integer_truncates.
(* the special values do not cast to xs:integer / xs:decimal (FOCA0002); finite values cast to xs:decimal exactly *)
Theorem C10_cast_special_values : forall v,
  (cast_integer v = None <-> nval_eq v v = true /\ match v with NFin _ _ => False | _ => True end) /\
  (forall w, cast_decimal v = Some w -> w = v) /\ (cast_decimal v = None <-> cast_integer v = None).
Proof.
  intros [n d| | |]; cbn; intuition congruence.
Qed.
Print Assumptions C10_cast_special_values.
(* xs:boolean: false exactly for zero and NaN; boolean -> number -> boolean is the identity; an integer survives the
   round trip through xs:decimal *)
Theorem C10_cast_boolean : forall v b z,
  (cast_boolean v = false <-> (exists d, nval_eq v (NFin 0 d) = true) \/ v = NNaN) /\
  cast_boolean (of_boolean b) = b /\ cast_integer (of_boolean b) = Some (if b then 1 else 0) /\
  (forall w, cast_decimal (NFin z 1) = Some w -> cast_integer w = Some z).
Proof.
  intros v b z. split; [|split; [|split]].
  - destruct v as [n d| | |]; cbn.
    + rewrite negb_false_iff, Z.eqb_eq. split; [intros ->; left; exists 1%positive; reflexivity|].
      intros [(e & H)|[=]]. apply Z.eqb_eq in H. lia.
    + split; auto.
    + split; [discriminate|intros [(e & [=])|[=]]].
    + split; [discriminate|intros [(e & [=])|[=]]].
  - destruct b; reflexivity.
  - destruct b; reflexivity.
  - intros w [= <-]. cbn. rewrite Z.quot_1_r. reflexivity.
Qed.
Print Assumptions C10_cast_boolean.
Example C10_cast_value_nonvacuous :
  cast_integer (NFin (-19) 10) = Some (-1) /\ cast_integer (NFin 19 10) = Some 1 /\ cast_integer NNaN = None /\
  cast_boolean (NFin 0 7) = false /\ cast_boolean NNInf = true /\ cast_decimal NPInf = None.
Proof. repeat split. Qed.
