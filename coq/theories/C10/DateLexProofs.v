(* Each printed field is read back by its recogniser with any rest behind it (two_print_two, lex_year_print4,
   lex_date_part_print, lex_tod_print, lex_tz_print); the other way, an accepted string passed the recogniser's tests. *)
From Coq Require Import ZArith List Bool Lia.
From EP Require Import Common.PyCalendar C10.Model C10.DateLex.
Import ListNotations.
Open Scope Z_scope.

(* A match on a code point literal is a tree over the bits of c (at most 7 for the literals here); tac closes the
   leaves off the path to the literal. *)
Ltac bits c tac := destruct c as [|c|c]; try tac; do 7 (try (destruct c as [c|c|]; try tac)).

Lemma digit_char : forall k, 0 <= k <= 9 -> is_digit (48 + k) = true.
Proof. intros k H. unfold is_digit. lia. Qed.
Lemma strip_neg_other : forall c s, c <> 45 -> strip_neg (c :: s) = (false, c :: s).
Proof. intros c s H. unfold strip_neg. bits c reflexivity. contradiction. Qed.

(* the digits of a field are its quotients and remainders by powers of ten *)
Section Division.
Ltac Zify.zify_post_hook ::= Z.to_euclidean_division_equations.

Lemma two_print_two : forall n r, 0 <= n < 100 -> two (print_two n ++ r) = Some (n, r).
Proof.
  intros n r H. unfold print_two, two. cbn [app].
  rewrite !digit_char by lia. cbn [andb]. do 2 f_equal. lia.
Qed.
Lemma span_four : forall n c r, 0 <= n <= 9999 -> is_digit c = false ->
  span_digits (print_four n ++ c :: r) = (print_four n, c :: r).
Proof.
  intros n c r H Hc. unfold print_four. cbn [app span_digits]. rewrite !digit_char, Hc by lia. reflexivity.
Qed.
Lemma num_four : forall n, num (print_four n) = n.
Proof. intros n. unfold num, print_four. cbn [dval]. lia. Qed.
Lemma strip_neg_four : forall n s, 0 <= n -> strip_neg (print_four n ++ s) = (false, print_four n ++ s).
Proof. intros n s H. apply strip_neg_other. lia. Qed.
End Division.

Definition tz_ok (t : option Z) : Prop := match t with None => True | Some z => -840 <= z <= 840 end.

Lemma lex_tz_offset : forall sg h m, sg = 43 \/ sg = 45 -> 0 <= h < 100 -> 0 <= m < 100 ->
  ((h <=? 13) && (m <=? 59)) || ((h =? 14) && (m =? 0)) = true ->
  lex_tz (sg :: print_two h ++ 58 :: print_two m) = Some (Some ((if sg =? 45 then -1 else 1) * (h * 60 + m))).
Proof.
  intros sg h m S Hh Hm C. rewrite <- (app_nil_r (print_two m)).
  destruct S as [-> | ->]; unfold lex_tz; cbn [Z.eqb Pos.eqb orb].
  all: rewrite two_print_two by assumption; cbn [expect Z.eqb Pos.eqb].
  all: rewrite two_print_two, C by assumption; reflexivity.
Qed.
Lemma lex_tz_print : forall t, tz_ok t -> lex_tz (print_tz t) = Some t.
Proof.
  intros [z|] H; [|reflexivity]. cbn in H. unfold print_tz.
  destruct (z =? 0) eqn:E0; [replace z with 0 by lia; reflexivity|]. cbn [app].
  pose proof (Z.div_mod (Z.abs z) 60) as D. pose proof (Z.mod_pos_bound (Z.abs z) 60) as B.
  rewrite lex_tz_offset by (destruct (z <? 0); auto; lia). do 2 f_equal. destruct (z <? 0) eqn:En; cbn [Z.eqb Pos.eqb]; lia.
Qed.

(* the digits of a year of four digits, behind the sign that strip_neg took off *)
Lemma lex_year_four : forall v11 neg s n c r, strip_neg s = (neg, print_four n ++ c :: r) -> 1 <= n <= 9999 ->
  is_digit c = false -> lex_year v11 s = Some ((if neg then - n else n), c :: r).
Proof.
  intros v11 neg s n c r S H Hc. unfold lex_year. rewrite S, span_four by (lia || exact Hc).
  change (length (print_four n)) with 4%nat. cbn [Nat.ltb Nat.leb andb]. rewrite num_four.
  replace (n =? 0) with false by lia. rewrite andb_false_r. reflexivity.
Qed.
Lemma lex_year_print4 : forall v11 y c r, 1 <= Z.abs y <= 9999 -> is_digit c = false ->
  lex_year v11 (print_year4 y ++ c :: r) = Some (y, c :: r).
Proof.
  intros v11 y c r H Hc. unfold print_year4. destruct (y <? 0) eqn:E.
  - rewrite (lex_year_four v11 true _ (- y) c r) by (reflexivity || lia || exact Hc). do 2 f_equal. lia.
  - apply (lex_year_four v11 false); [apply strip_neg_four|..]; (lia || exact Hc).
Qed.

Definition date_ok (v11 : bool) (y m d : Z) : Prop :=
  1 <= Z.abs y <= 9999 /\ 1 <= m <= 12 /\ 1 <= d <= month_days (astro_of v11 y) m.

Lemma month_days_le : forall a m, month_days a m <= 31.
Proof.
  intros a m. unfold month_days. destruct (m =? 2); [destruct (isleap a); lia|].
  destruct ((m =? 4) || (m =? 6) || (m =? 9) || (m =? 11)); lia.
Qed.

Lemma lex_date_part_print : forall v11 y m d rest, date_ok v11 y m d ->
  lex_date_part v11 (print_year4 y ++ 45 :: print_two m ++ 45 :: print_two d ++ rest) = Some (y, m, d, rest).
Proof.
  intros v11 y m d rest (Hy & Hm & Hd). pose proof (month_days_le (astro_of v11 y) m) as Hl.
  unfold lex_date_part.
  rewrite (lex_year_print4 v11 y 45 _ Hy eq_refl). cbn [expect Z.eqb Pos.eqb].
  rewrite two_print_two by lia. cbn [expect Z.eqb Pos.eqb]. rewrite two_print_two by lia.
  replace (_ && _) with true by lia. reflexivity.
Qed.

Definition tod_ok (h mi sec : Z) : Prop := 0 <= h <= 23 /\ 0 <= mi <= 59 /\ 0 <= sec <= 59.

Lemma print_tz_head : forall t, hd 0 (print_tz t) <> 46.
Proof. intros [z|]; [|discriminate]. unfold print_tz. destruct (z =? 0), (z <? 0); discriminate. Qed.

(* whole seconds: what follows is not a fraction *)
Lemma lex_tod_print : forall h mi sec rest, tod_ok h mi sec -> hd 0 rest <> 46 ->
  lex_tod (print_two h ++ 58 :: print_two mi ++ 58 :: print_two sec ++ rest) = Some (h, mi, sec, 0, rest).
Proof.
  intros h mi sec rest (Hh & Hm & Hs) Hr. unfold lex_tod.
  rewrite two_print_two by lia. cbn [expect Z.eqb Pos.eqb].
  rewrite two_print_two by lia. cbn [expect Z.eqb Pos.eqb].
  rewrite two_print_two by lia.
  assert (E : forall (A : Type) (a : str -> A) (b : A), match rest with 46 :: r => a r | _ => b end = b).
  { intros A a b. destruct rest as [|c r]; [reflexivity|]. cbn [hd] in Hr. bits c reflexivity. contradiction. }
  rewrite E. cbn [negb forallb micro_of_frac]. replace (_ && _ && _) with true by lia. reflexivity.
Qed.

Lemma two_range : forall s n r, two s = Some (n, r) -> 0 <= n <= 99.
Proof.
  intros s n r H. unfold two in H. destruct s as [|a [|b s']]; try discriminate.
  destruct (is_digit a && is_digit b) eqn:E; [|discriminate]. injection H as <- _. unfold is_digit in E. lia.
Qed.
Lemma lex_tz_range : forall s z, lex_tz s = Some (Some z) -> -840 <= z <= 840.
Proof.
  intros [|sg r] z H; [discriminate|]. unfold lex_tz in H.
  (* the pattern [90], with the branches abstract so that walking the bits of sg is cheap *)
  assert (E : forall (A : Type) (a b : A), match sg with 90 => match r with [] => a | _ => b end | _ => b end =
                                           if (sg =? 90) && match r with [] => true | _ => false end then a else b).
  { intros A a b. bits sg reflexivity. destruct r; reflexivity. }
  rewrite E in H. destruct ((sg =? 90) && _); [injection H as <-; lia|].
  destruct ((sg =? 43) || (sg =? 45)); [|discriminate].
  destruct (two r) as [[h r1]|] eqn:T1; [|discriminate]. destruct (expect 58 r1) as [r2|]; [|discriminate].
  destruct (two r2) as [[m [|x r3]]|] eqn:T2; try discriminate.
  destruct ((h <=? 13) && (m <=? 59) || (h =? 14) && (m =? 0)) eqn:C; [|discriminate].
  injection H as <-. apply two_range in T1, T2. destruct (sg =? 45); lia.
Qed.
Lemma lex_year_nonzero : forall s y r, lex_year false s = Some (y, r) -> y <> 0.
Proof.
  intros s y r Y. unfold lex_year in Y. destruct (strip_neg s) as [neg r']. destruct (span_digits r') as [ds rest].
  destruct ((length ds <? 4)%nat); [discriminate|]. destruct ((4 <? length ds)%nat && (hd 0 ds =? 48)); [discriminate|].
  cbn [negb andb] in Y. destruct (num ds =? 0) eqn:N0; [discriminate|]. injection Y as <- _. destruct neg; lia.
Qed.
Lemma lex_date_part_valid : forall v11 s y m d r, lex_date_part v11 s = Some (y, m, d, r) ->
  1 <= m <= 12 /\ 1 <= d <= month_days (astro_of v11 y) m /\ (v11 = false -> y <> 0).
Proof.
  intros v11 s y m d r H. unfold lex_date_part in H.
  destruct (lex_year v11 s) as [[y0 r0]|] eqn:Y; [|discriminate].
  destruct (expect 45 r0) as [r1|]; [|discriminate]. destruct (two r1) as [[m0 r2]|]; [|discriminate].
  destruct (expect 45 r2) as [r3|]; [|discriminate]. destruct (two r3) as [[d0 r4]|]; [|discriminate].
  destruct (_ && _) eqn:C in H; [|discriminate]. injection H as <- <- <- <-.
  split; [lia|]. split; [lia|]. intros ->. exact (lex_year_nonzero _ _ _ Y).
Qed.
