From Coq Require Import ZArith List.
From EP Require Import Gen.C10Tables C10.Model C10.Proofs.
From EP Require Gen.C10Shape.
Import ListNotations.
Open Scope Z_scope.

(* the bounds declared by the 13 integer classes of the code are exactly those of XSD part 2 *)
Theorem C10_integer_bounds : int_bounds = spec_bounds.
Proof. reflexivity. Qed.
Print Assumptions C10_integer_bounds.

(* constructing an integer type from a string succeeds exactly for a lexical integer whose value is within the XSD
   bounds of the type, and yields that value: every type, every string *)
Theorem C10_integer_constructor : forall t s z,
  make_int int_bounds t s = Some z <-> (int_value s = Some z /\ in_bounds (nth t spec_bounds (None, None)) z = true).
Proof.
  intros t s z. rewrite C10_integer_bounds. apply make_int_spec.
Qed.
Print Assumptions C10_integer_constructor.

(* the canonical string of every integer is in the lexical space and re-parses to the same value (fixed point) *)
Theorem C10_integer_canonical : forall z, lex_integer (print_int z) = true /\ int_value (print_int z) = Some z.
Proof. intros z. split; [apply print_int_lex|apply print_int_value]. Qed.
Print Assumptions C10_integer_canonical.

(* hexBinary and base64Binary: decoding the canonical encoding gives back the octets; so casting between the two
   types in either direction preserves the value: all octet sequences *)
Theorem C10_binary_roundtrip : forall bs, Forall byte bs ->
  dec_hex (enc_hex bs) = Some bs /\ dec64 (enc64 bs) = Some bs /\ lex_hex (enc_hex bs) = true /\ lex_base64 (enc64 bs) = true.
Proof.
  intros bs H. pose proof (hex_roundtrip bs H) as Hx. unfold lex_base64. rewrite (b64_roundtrip bs H).
  repeat split; [exact Hx|exact (dec_hex_lex _ _ Hx)].
Qed.
Print Assumptions C10_binary_roundtrip.

Example C10_nonvacuous :
  make_int int_bounds 3 [57;50;50;51;51;55;50;48;51;54;56;53;52;55;55;53;56;48;55] = Some 9223372036854775807 /\   (* xs:long max *)
  make_int int_bounds 3 [57;50;50;51;51;55;50;48;51;54;56;53;52;55;55;53;56;48;56] = None /\
  make_int int_bounds 12 [43; 48; 50; 53; 53] = Some 255 /\ make_int int_bounds 12 [50; 53; 54] = None /\
  int_value [49; 95; 48] = None /\ print_int (-120) = [45; 49; 50; 48] /\
  enc64 [102; 111; 111; 98] = [90; 109; 57; 118; 89; 103; 61; 61] /\ enc_hex [0; 255; 16] = [48; 48; 70; 70; 49; 48] /\
  lex_double false [49; 46; 53; 69; 45; 49; 48] = true /\ lex_double false [43; 73; 78; 70] = false /\ lex_decimal [46] = false.
Proof. vm_compute. repeat split. Qed.

(* the statements of /repo that the hand model mirrors are present in the source as read on this run (T-data,
   harness/shape.py -> Gen/C10Shape.v) *)
Theorem C10_source_shape : Gen.C10Shape.shape_ok = true.
Proof. reflexivity. Qed.
Print Assumptions C10_source_shape.
