From Coq Require Import List.
From EP Require Import C10.CastTable.
Import ListNotations.

(* the structured decision is the table of F&O 19.1 *)
Theorem C10_casting_table : forall s t, castable s t = in_table s t.
Proof. intros s t. destruct s, t; reflexivity. Qed.
Print Assumptions C10_casting_table.
(* every type casts to itself, to xs:string and to xs:untypedAtomic, and from them *)
Theorem C10_casting_table_strings : forall t,
  castable t t = true /\ castable t CString = true /\ castable t CUntyped = true /\ castable CString t = true /\
  castable CUntyped t = true.
Proof. intros t. destruct t; repeat split. Qed.
Print Assumptions C10_casting_table_strings.
(* outside the string types casting stays within one family, except numeric <-> boolean and dateTime / date -> parts *)
Definition family_ok (s t : cty) : bool :=
  ((is_numeric s || cty_eqb s CBoolean) && (is_numeric t || cty_eqb t CBoolean)) ||
  (is_duration s && is_duration t) || (is_binary s && is_binary t) || cty_eqb s t ||
  ((cty_eqb s CDateTime || cty_eqb s CDate) && (cty_eqb t CDateTime || cty_eqb t CDate || cty_eqb t CTime || is_gtype t)).
Theorem C10_casting_table_families : forall s t, castable s t = true -> is_stringy s = false -> is_stringy t = false ->
  family_ok s t = true.
Proof. intros s t. destruct s, t; intros H H1 H2; try discriminate; reflexivity. Qed.
Print Assumptions C10_casting_table_families.
Example C10_cast_nonvacuous :
  castable CDate CGYear = true /\ castable CDate CTime = false /\ castable CBoolean CDouble = true /\
  castable CHex CBase64 = true /\ castable CAnyURI CInteger = false /\ castable CTime CDateTime = false.
Proof. repeat split. Qed.
