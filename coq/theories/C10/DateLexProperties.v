From Coq Require Import ZArith List.
From EP Require Import C10.DateLex C10.DateLexProofs.
Import ListNotations.
Open Scope Z_scope.

(* canonical forms re-parse to the value they print - date, time and dateTime values with a four-digit year (1 BCE
   back to 9999 BCE, 1 to 9999), every valid month / day (leap years by the year numbering of the XSD version), every
   time of day in whole seconds, every timezone from -14:00 to +14:00 or none.
   FULL STATEMENT (not proved): the same for every year (more than four digits) and for fractional seconds. *)
Theorem C10_date_canonical_reparses_partial : forall v11 y m d t, date_ok v11 y m d -> tz_ok t ->
  lex_date v11 (print_date y m d t) = [1; y; m; d; otz t].
Proof.
  intros v11 y m d t H Ht. unfold lex_date, print_date. cbn [app].
  rewrite (lex_date_part_print v11 y m d (print_tz t) H), (lex_tz_print t Ht). reflexivity.
Qed.
Print Assumptions C10_date_canonical_reparses_partial.
Theorem C10_time_canonical_reparses_partial : forall h mi sec t, tod_ok h mi sec -> tz_ok t ->
  lex_time (print_time h mi sec t) = [1; h; mi; sec; 0; otz t].
Proof.
  intros h mi sec t H Ht. unfold lex_time, print_time. cbn [app].
  rewrite (lex_tod_print h mi sec _ H (print_tz_head t)), (lex_tz_print t Ht). reflexivity.
Qed.
Print Assumptions C10_time_canonical_reparses_partial.
Theorem C10_dateTime_canonical_reparses_partial : forall v11 y m d h mi sec t, date_ok v11 y m d -> tod_ok h mi sec -> tz_ok t ->
  lex_dateTime v11 (print_dateTime y m d h mi sec t) = [1; y; m; d; h; mi; sec; 0; otz t].
Proof.
  intros v11 y m d h mi sec t H Ho Ht. unfold lex_dateTime, print_dateTime, print_time. cbn [app].
  rewrite (lex_date_part_print v11 y m d _ H). cbn [expect Z.eqb Pos.eqb].
  rewrite (lex_tod_print h mi sec _ Ho (print_tz_head t)), (lex_tz_print t Ht). reflexivity.
Qed.
Print Assumptions C10_dateTime_canonical_reparses_partial.
(* every accepted string denotes a value of the value space: month 1..12, a day of that month in that year, no year zero
   in XSD 1.0, a timezone within 14 hours *)
Theorem C10_date_lexical_sound : forall v11 s y m d r z,
  (lex_date_part v11 s = Some (y, m, d, r) ->
     1 <= m <= 12 /\ 1 <= d <= month_days (astro_of v11 y) m /\ (v11 = false -> y <> 0)) /\
  (lex_tz s = Some (Some z) -> -840 <= z <= 840).
Proof. intros. split; [apply lex_date_part_valid|apply lex_tz_range]. Qed.
Print Assumptions C10_date_lexical_sound.

Example C10_datelex_nonvacuous :
  date_ok false (-1) 2 29 /\ ~ date_ok true (-1) 2 29 /\ date_ok true (-4) 2 29 /\
  lex_date false [45; 48; 48; 48; 49; 45; 48; 50; 45; 50; 57; 43; 49; 52; 58; 48; 48] = [1; -1; 2; 29; 840] /\
  lex_date true [45; 48; 48; 48; 49; 45; 48; 50; 45; 50; 57] = [] /\
  lex_duration 0 [45; 80; 49; 89; 50; 77; 51; 68; 84; 52; 72; 53; 77; 54; 46; 55; 83] = [1; -14; -273906700000] /\
  lex_duration 1 [80; 48; 89] = [] /\ lex_duration 2 [80; 48; 68] = [] /\ lex_duration 0 [80; 84] = [] /\
  lex_dateTime false [50; 48; 48; 48; 45; 48; 49; 45; 48; 49; 84; 50; 52; 58; 48; 48; 58; 48; 48; 46; 48] = [1; 2000; 1; 1; 24; 0; 0; 0; 9999].
Proof. unfold date_ok. repeat split; try reflexivity; vm_compute; intuition discriminate. Qed.
