From Coq Require Import ZArith List.
From EP Require Import C10.Whitespace C10.WhitespaceProofs.
Import ListNotations.
Open Scope Z_scope.

(* collapse keeps every character that is not one of #x20 #x9 #xA #xD, in order (a no-break space, an ideographic space,
   a form feed are content); its result has no leading, trailing or doubled white space and only #x20; it is a fixed
   point of collapse, and exactly the collapsed strings are fixed points *)
Theorem C10_whitespace_collapse : forall s,
  filter nonws (collapse s) = filter nonws s /\ collapsed (collapse s) = true /\
  collapse (collapse s) = collapse s /\ (collapsed s = true -> collapse s = s).
Proof.
  intros s. split; [apply collapse_aux_content|]. split; [apply collapse_collapsed|].
  split; [apply collapse_fixed, collapse_collapsed|apply collapse_fixed].
Qed.
Print Assumptions C10_whitespace_collapse.
Example C10_whitespace_nonvacuous :
  collapse [32; 9; 97; 10; 13; 32; 98; 12288; 32] = [97; 32; 98; 12288] /\ collapse [160; 49] = [160; 49] /\ collapse [32; 10] = [].
Proof. vm_compute. repeat split. Qed.
