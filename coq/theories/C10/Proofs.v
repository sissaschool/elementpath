From Coq Require Import ZArith List Bool Lia Decimal DecimalZ DecimalPos ZifyBool.
From EP Require Import C10.Model.
Import ListNotations.
Open Scope Z_scope.

Lemma chars_uint_chars : forall u, chars_uint (uint_chars u) = Some u.
Proof. induction u; cbn [uint_chars chars_uint]; try rewrite IHu; reflexivity. Qed.
Lemma uint_chars_digits : forall u, forallb is_digit (uint_chars u) = true.
Proof. induction u; cbn [uint_chars forallb]; try rewrite IHu; reflexivity. Qed.
Lemma to_int_nonnil : forall z, match Z.to_int z with Pos u | Neg u => u <> Nil end.
Proof. intros [|p|p]; cbn; [discriminate|apply DecimalPos.Unsigned.to_uint_nonnil|apply DecimalPos.Unsigned.to_uint_nonnil]. Qed.

Lemma digits1_uint : forall u, u <> Nil -> digits1 (uint_chars u) = true.
Proof. intros u H. unfold digits1. rewrite uint_chars_digits. destruct u; [contradiction|..]; reflexivity. Qed.

(* a numeral begins with a digit, so the matches on a leading sign in int_value and strip_sign compute *)
Lemma int_value_uint : forall u, u <> Nil -> int_value (uint_chars u) = Some (Z.of_uint u).
Proof.
  intros u H. unfold int_value, lex_integer. pose proof (digits1_uint u H) as D. pose proof (chars_uint_chars u) as C.
  destruct u; [contradiction|..]; cbn [uint_chars strip_sign] in *; rewrite D, C; reflexivity.
Qed.
Lemma int_value_neg : forall u, u <> Nil -> int_value (45 :: uint_chars u) = Some (- Z.of_uint u).
Proof.
  intros u H. unfold int_value, lex_integer. cbn [strip_sign]. rewrite digits1_uint, chars_uint_chars by exact H.
  reflexivity.
Qed.
Lemma print_int_value : forall z, int_value (print_int z) = Some z.
Proof.
  intros z. unfold print_int. generalize (to_int_nonnil z) (DecimalZ.of_to z).
  destruct (Z.to_int z) as [u|u]; intros N <-; [apply int_value_uint|apply int_value_neg]; exact N.
Qed.
Lemma int_value_lex : forall s z, int_value s = Some z -> lex_integer s = true.
Proof. intros s z. unfold int_value. destruct (lex_integer s); [reflexivity|discriminate]. Qed.
Lemma print_int_lex : forall z, lex_integer (print_int z) = true.
Proof. intros z. exact (int_value_lex _ _ (print_int_value z)). Qed.

Lemma make_int_spec : forall tb t s z,
  make_int tb t s = Some z <-> int_value s = Some z /\ in_bounds (nth t tb (None, None)) z = true.
Proof.
  intros tb t s z. unfold make_int. destruct (int_value s) as [v|]; [|split; [discriminate|intros [[=] _]]].
  destruct (in_bounds _ v) eqn:E; split; try discriminate.
  - intros [= ->]. auto.
  - intros [[= ->] _]. reflexivity.
  - intros [[= ->] B]. congruence.
Qed.

Lemma hexv_hexd : forall n, 0 <= n < 16 -> hexv (hexd n) = Some n.
Proof.
  intros n H. unfold hexd, hexv, is_digit. destruct (n <? 10) eqn:E.
  - replace ((48 <=? 48 + n) && (48 + n <=? 57)) with true by lia. f_equal. lia.
  - replace ((48 <=? 55 + n) && (55 + n <=? 57)) with false by lia.
    replace ((65 <=? 55 + n) && (55 + n <=? 70)) with true by lia. f_equal. lia.
Qed.
Lemma is_hex_hexv : forall c, is_hex c = if hexv c then true else false.
Proof.
  intros c. unfold is_hex, hexv.
  destruct (is_digit c), ((65 <=? c) && (c <=? 70)), ((97 <=? c) && (c <=? 102)); reflexivity.
Qed.
Lemma dec_hex_lex : forall s bs, dec_hex s = Some bs -> lex_hex s = true.
Proof.
  fix IH 1. intros [|a [|b r]] bs H; [reflexivity|discriminate|]. cbn [dec_hex] in H.
  unfold lex_hex. cbn [forallb length Nat.even]. rewrite !is_hex_hexv.
  destruct (hexv a), (hexv b), (dec_hex r) eqn:R; try discriminate. exact (IH r _ R).
Qed.

Lemma b64_char : forall n, 0 <= n < 64 -> b64v (b64c n) = Some n /\ (b64c n =? 61) = false.
Proof.
  intros n H. rewrite <- (Z2Nat.id n) by lia. assert (K : (Z.to_nat n < 64)%nat) by lia.
  revert K. generalize (Z.to_nat n). clear.
  do 64 (destruct n as [|n]; [split; vm_compute; reflexivity|]). lia.
Qed.
Lemma b64v_b64c : forall n, 0 <= n < 64 -> b64v (b64c n) = Some n.
Proof. apply b64_char. Qed.
Lemma b64c_pad : forall n, 0 <= n < 64 -> (b64c n =? 61) = false.
Proof. apply b64_char. Qed.

Lemma list_ind3 : forall (P : list Z -> Prop), P [] -> (forall a, P [a]) -> (forall a b, P [a; b]) ->
  (forall a b c r, P r -> P (a :: b :: c :: r)) -> forall l, P l.
Proof.
  intros P H0 H1 H2 H3. fix IH 1. intros [|a [|b [|c r]]]; [exact H0|apply H1|apply H2|apply H3; apply IH].
Qed.

(* the encoders cut octets up by division: for the round trips lia is given the division equations *)
Section Division.
Ltac Zify.zify_post_hook ::= Z.to_euclidean_division_equations.

Lemma hex_roundtrip : forall bs, Forall byte bs -> dec_hex (enc_hex bs) = Some bs.
Proof.
  induction 1 as [|b r Hb _ IH]; [reflexivity|]. unfold byte in Hb.
  cbn [enc_hex dec_hex]. rewrite !hexv_hexd, IH by lia. do 2 f_equal. lia.
Qed.

Lemma b64_roundtrip : forall bs, Forall byte bs -> dec64 (enc64 bs) = Some bs.
Proof.
  induction bs as [|a|a b|a b c r IH] using list_ind3; intros H; repeat (apply Forall_cons_iff in H as [? H]);
    unfold byte in *; cbn [enc64 dec64]; [reflexivity|..].
  (* one, two or three octets: none of the characters is '=' and each decodes to its sextet *)
  all: rewrite ?b64c_pad, !b64v_b64c by lia.
  (* in a padded group the unused low bits of the last sextet are zero *)
  all: rewrite ?Z.mod_mul, ?(IH H) by lia; cbn [Z.eqb Pos.eqb].
  (* what is left is to put the octets together again *)
  all: repeat f_equal; lia.
Qed.
End Division.
