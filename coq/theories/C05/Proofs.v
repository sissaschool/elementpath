From Coq Require Import List Bool Arith Lia.
From EP Require Import C05.Model.
Import ListNotations.
Open Scope Z_scope.

Lemma flat_map_opt_ext : forall f g l, (forall a, f a = g a) -> flat_map_opt f l = flat_map_opt g l.
Proof. intros f g l H. induction l as [|a r IH]; cbn; auto. rewrite H, IH. reflexivity. Qed.
Lemma quant_ext : forall s f g l, (forall a, f a = g a) -> quant s f l = quant s g l.
Proof. intros s f g l H. induction l as [|a r IH]; cbn; auto. rewrite H, IH. reflexivity. Qed.

Lemma lookup_bind_ne : forall x v d z, z <> x -> lookup z (bind x v d) = lookup z d.
Proof. intros x v d z H. cbn. destruct (Nat.eqb_spec x z); congruence. Qed.

Definition agree (P : nat -> Prop) (d1 d2 : dict) : Prop := forall z, P z -> lookup z d1 = lookup z d2.
Lemma agree_bind : forall P x v d1 d2, agree P d1 d2 -> agree P (bind x v d1) (bind x v d2).
Proof. intros P x v d1 d2 H z Hz. cbn. rewrite (H z Hz). reflexivity. Qed.

Lemma orb_elim : forall (f g : nat -> bool) (P : nat -> Prop),
  (forall z, f z || g z = true -> P z) -> (forall z, f z = true -> P z) /\ (forall z, g z = true -> P z).
Proof. intros f g P H. split; intros z Hz; apply H; rewrite Hz; auto with bool. Qed.

(* The specification depends only on the variables an expression mentions. P is fixed through the induction:
   binders preserve agreement on P; what is split is "P covers e". *)
Lemma coincidence : forall (P : nat -> Prop) e, (forall z, mentions z e = true -> P z) ->
  forall d1 d2, agree P d1 d2 -> spec e d1 = spec e d2.
Proof.
  intros P.
  induction e as [v|x|a IHa b IHb|a IHa b IHb|x r IHr b IHb|x r1 IH1 y r2 IH2 b IHb|x v IHv b IHb|x v1 IH1 y v2 IH2 b IHb|s x r IHr c IHc];
    intros M d1 d2 A; cbn [spec]; cbn [mentions] in M.
  - reflexivity.
  - apply A, M, Nat.eqb_refl.
  - apply orb_elim in M as [Ma Mb]. rewrite (IHa Ma d1 d2 A), (IHb Mb d1 d2 A). reflexivity.
  - apply orb_elim in M as [Ma Mb]. rewrite (IHa Ma d1 d2 A), (IHb Mb d1 d2 A). reflexivity.
  - apply orb_elim in M as [Mr Mb]. rewrite (IHr Mr d1 d2 A). destruct (spec r d2); auto.
    apply flat_map_opt_ext. intros a. apply (IHb Mb), agree_bind, A.
  - apply orb_elim in M as [M Mb]. apply orb_elim in M as [M1 M2]. rewrite (IH1 M1 d1 d2 A). destruct (spec r1 d2); auto.
    apply flat_map_opt_ext. intros a. rewrite (IH2 M2 _ _ (agree_bind P x [a] _ _ A)). destruct (spec r2 (bind x [a] d2)); auto.
    apply flat_map_opt_ext. intros a2. apply (IHb Mb), agree_bind, agree_bind, A.
  - apply orb_elim in M as [Mv Mb]. rewrite (IHv Mv d1 d2 A). destruct (spec v d2); auto. apply (IHb Mb), agree_bind, A.
  - apply orb_elim in M as [M Mb]. apply orb_elim in M as [M1 M2]. rewrite (IH1 M1 d1 d2 A). destruct (spec v1 d2) as [u|]; auto.
    rewrite (IH2 M2 _ _ (agree_bind P x u _ _ A)). destruct (spec v2 (bind x u d2)); auto.
    apply (IHb Mb), agree_bind, agree_bind, A.
  - apply orb_elim in M as [Mr Mc]. rewrite (IHr Mr d1 d2 A). destruct (spec r d2); auto.
    apply quant_ext. intros a. apply (IHc Mc), agree_bind, A.
Qed.

Lemma write_length : forall h q x v, length (write q x v h) = length h.
Proof. induction h as [|d r IH]; intros [|q] x v; cbn; auto. Qed.
Lemma get_write_same : forall h q x v, (q < length h)%nat -> get q (write q x v h) = bind x v (get q h).
Proof.
  induction h as [|d r IH]; intros [|q] x v H; cbn in *; try lia; auto. apply IH. lia.
Qed.
Lemma firstn_write : forall h n q x v, (n <= q)%nat -> firstn n (write q x v h) = firstn n h.
Proof.
  induction h as [|d r IH]; intros n [|q] x v H; auto.
  - assert (n = 0)%nat by lia. subst. reflexivity.
  - destruct n; cbn; auto. f_equal. apply IH. lia.
Qed.
Lemma get_new : forall h d, get (length h) (h ++ [d]) = d.
Proof. intros. unfold get. rewrite app_nth2 by lia. rewrite Nat.sub_diag. reflexivity. Qed.

(* h' extends h: the dictionaries that existed are unchanged *)
Definition ext (h h' : heap) : Prop := firstn (length h) h' = h.
Lemma ext_refl : forall h, ext h h.
Proof. intros. apply firstn_all. Qed.
Lemma ext_app : forall (h l : heap), ext h (h ++ l).
Proof. intros. unfold ext. rewrite firstn_app, Nat.sub_diag, firstn_all. apply app_nil_r. Qed.
Lemma ext_length : forall h h', ext h h' -> (length h <= length h')%nat.
Proof.
  unfold ext. intros h h' E. assert (L := firstn_length (length h) h'). rewrite E in L. lia.
Qed.
Lemma ext_trans_firstn : forall (h1 h2 : heap) n, ext h1 h2 -> (n <= length h1)%nat -> firstn n h2 = firstn n h1.
Proof.
  unfold ext. intros h h' n E Hn. rewrite <- E. rewrite firstn_firstn. f_equal. lia.
Qed.
Lemma ext_trans : forall h1 h2 h3, ext h1 h2 -> ext h2 h3 -> ext h1 h3.
Proof.
  intros h1 h2 h3 E1 E2. unfold ext. rewrite (ext_trans_firstn h2 h3 _ E2) by (apply ext_length; exact E1). exact E1.
Qed.
Lemma ext_get : forall h h' p, ext h h' -> (p < length h)%nat -> get p h' = get p h.
Proof.
  unfold ext, get. intros h h' p E Hp. rewrite <- (firstn_skipn (length h) h'), E. apply app_nth1, Hp.
Qed.
Lemma ext_write : forall g h q x v, ext g h -> (length g <= q)%nat -> ext g (write q x v h).
Proof. unfold ext. intros g h q x v E L. rewrite firstn_write by exact L. exact E. Qed.

(* the implementation's result o against the specification's s: both fail, or both give the same items and the final
   heap satisfies Q *)
Definition refines (o : res) (s : option value) (Q : heap -> Prop) : Prop :=
  match o with Some (v, h') => s = Some v /\ Q h' | None => s = None end.
Lemma refines_bind : forall o s (k : value -> heap -> res) (k' : value -> option value) (P Q : heap -> Prop),
  refines o s P -> (forall v h, P h -> refines (k v h) (k' v) Q) ->
  refines (match o with None => None | Some (v, h) => k v h end) (match s with None => None | Some v => k' v end) Q.
Proof. intros [[v h]|] s k k' P Q; cbn; [intros [-> H] K; apply K, H|intros -> _; reflexivity]. Qed.
Lemma refines_mono : forall o s (P Q : heap -> Prop), (forall h, P h -> Q h) -> refines o s P -> refines o s Q.
Proof. intros [[v h]|] s P Q I; cbn; [intros [E H]; auto|auto]. Qed.

(* bi evaluates e correctly in the dictionary at address q, whatever the heap, and leaves every dictionary as it was *)
Definition body_ok (bi : heap -> res) (q : nat) (e : expr) : Prop :=
  forall h, (q < length h)%nat -> refines (bi h) (spec e (get q h)) (ext h).

(* the invariant inside a binding construct entered from the caller's heap g: g is unchanged in h, and the construct's
   own dictionary (the copy, at address length g) agrees with d except on xs, the variables a loop is about to write *)
Definition scope (g : heap) (xs : list nat) (d : dict) (h : heap) : Prop :=
  ext g h /\ (length g < length h)%nat /\ agree (fun z => ~ In z xs) (get (length g) h) d.

Lemma scope_copy : forall p g, scope g [] (get p g) (copy_vars p g).
Proof.
  intros p g. unfold copy_vars. split; [apply ext_app|]. split; [rewrite app_length; cbn; lia|].
  rewrite get_new. intros z _. reflexivity.
Qed.
Lemma scope_weaken : forall g xs ys d h, incl xs ys -> scope g xs d h -> scope g ys d h.
Proof. intros g xs ys d h I (E & L & A). repeat split; auto. intros z Hz. apply A. intros Hx. apply Hz, I, Hx. Qed.
Lemma scope_ext : forall g xs d h h', scope g xs d h -> ext h h' -> scope g xs d h'.
Proof.
  intros g xs d h h' (E & L & A) E'. split; [eapply ext_trans; eassumption|].
  split; [apply ext_length in E'; lia|]. rewrite (ext_get h h' _ E' L). exact A.
Qed.
Lemma scope_write : forall g xs d h x v, scope g (x :: xs) d h -> scope g xs (bind x v d) (write (length g) x v h).
Proof.
  intros g xs d h x v (E & L & A). split; [apply ext_write; auto|]. split; [rewrite write_length; exact L|].
  rewrite get_write_same by exact L. intros z Hz. cbn. destruct (Nat.eqb_spec x z) as [->|N]; [reflexivity|].
  apply A. intros [->|I]; tauto.
Qed.
Lemma scope_bind : forall g xs d h x v, scope g xs d h -> scope g xs (bind x v d) (write (length g) x v h).
Proof. intros g xs d h x v S. apply scope_write, (scope_weaken g xs), S. apply incl_tl, incl_refl. Qed.
Lemma scope_unbind : forall g xs d h x v, scope g xs (bind x v d) h -> scope g (x :: xs) d h.
Proof.
  intros g xs d h x v (E & L & A). repeat split; auto. intros z Hz. cbn in Hz.
  rewrite A by tauto. apply lookup_bind_ne. intros ->. tauto.
Qed.
(* a write to a variable that is not compared leaves the invariant as it is *)
Lemma scope_write_l : forall g xs d h x v, In x xs -> scope g xs d h -> scope g xs d (write (length g) x v h).
Proof.
  intros g xs d h x v I S. apply (scope_weaken g (x :: xs)); [apply incl_cons; [exact I|apply incl_refl]|].
  eapply scope_unbind, scope_bind, S.
Qed.
Lemma scope_eval : forall bi g xs d e h, body_ok bi (length g) e -> (forall z, In z xs -> mentions z e = false) ->
  scope g xs d h -> refines (bi h) (spec e d) (scope g xs d).
Proof.
  intros bi g xs d e h OK M S. pose proof S as (_ & L & A).
  rewrite <- (coincidence _ e) with (2 := A) by (intros z Hz I; rewrite (M z I) in Hz; discriminate).
  eapply refines_mono; [|apply OK, L]. intros h'. apply scope_ext, S.
Qed.
(* when the whole dictionary agrees with d nothing is asked of e *)
Lemma scope_eval_nil : forall bi g d e h, body_ok bi (length g) e ->
  scope g [] d h -> refines (bi h) (spec e d) (scope g [] d).
Proof. intros bi g d e h OK S. apply scope_eval; [exact OK|intros ? []|exact S]. Qed.

Lemma for_loop_ok : forall bi g x body d, body_ok bi (length g) body ->
  forall vs h, scope g [x] d h ->
  refines (for_loop bi (length g) x vs h) (flat_map_opt (fun v => spec body (bind x [v] d)) vs) (scope g [x] d).
Proof.
  intros bi g x body d OK. induction vs as [|a r IH]; intros h S; cbn [for_loop flat_map_opt]; [split; auto|].
  (* one iteration: after the writes the whole dictionary agrees with bind x [a] d; after the body x is forgotten again *)
  eapply refines_bind.
  - apply scope_eval_nil; [exact OK|].
    apply scope_write, scope_write_l; [left; reflexivity|exact S].
  - intros u h2 S2. eapply refines_bind; [apply IH, scope_unbind with (1 := S2)|].
    intros w h3 S3. split; [reflexivity|exact S3].
Qed.

Lemma quant_loop_ok : forall s bi g x cond d, body_ok bi (length g) cond ->
  forall vs h, scope g [x] d h ->
  refines (quant_loop s bi (length g) x vs h) (quant s (fun v => spec cond (bind x [v] d)) vs) (scope g [x] d).
Proof.
  intros s bi g x cond d OK. induction vs as [|a r IH]; intros h S; cbn [quant_loop quant]; [split; auto|].
  eapply refines_bind.
  - apply scope_eval_nil; [exact OK|].
    apply scope_write, scope_write_l; [left; reflexivity|exact S].
  - intros c h2 S2. apply scope_unbind in S2. destruct s, (truth c); try (split; [reflexivity|exact S2]); apply IH, S2.
Qed.

Lemma for_inner_ok : forall bi g x v1 y body d, body_ok bi (length g) body ->
  forall vs h, scope g [x; y] d h ->
  refines (for_inner bi (length g) x v1 y vs h) (flat_map_opt (fun v2 => spec body (bind y [v2] (bind x [v1] d))) vs)
          (scope g [x; y] d).
Proof.
  intros bi g x v1 y body d OK. induction vs as [|a r IH]; intros h S; cbn [for_inner flat_map_opt]; [split; auto|].
  eapply refines_bind.
  - apply scope_eval_nil; [exact OK|].
    apply scope_write, scope_write, scope_write_l; [right; left; reflexivity|exact S].
  - intros u h2 S2. do 2 apply scope_unbind in S2. eapply refines_bind; [apply IH, S2|].
    intros w h3 S3. split; [reflexivity|exact S3].
Qed.

Lemma for_outer_ok : forall r2i bi g x y r2 body d,
  body_ok r2i (length g) r2 -> body_ok bi (length g) body -> mentions y r2 = false ->
  forall vs h, scope g [x; y] d h ->
  refines (for_outer r2i bi (length g) x y vs h)
          (flat_map_opt (fun v1 => match spec r2 (bind x [v1] d) with
                                   | None => None
                                   | Some vs2 => flat_map_opt (fun v2 => spec body (bind y [v2] (bind x [v1] d))) vs2
                                   end) vs)
          (scope g [x; y] d).
Proof.
  intros r2i bi g x y r2 body d OK2 OKb NM. induction vs as [|a r IH]; intros h S; cbn [for_outer flat_map_opt]; [split; auto|].
  assert (R2 : refines (r2i (write (length g) x [a] h)) (spec r2 (bind x [a] d)) (scope g [y] (bind x [a] d))).
  { apply scope_eval; [exact OK2|intros ? [<-|[]]; exact NM|]. apply scope_write, S. }
  destruct (r2i _) as [[vs2 h2]|]; cbn [refines] in R2; [destruct R2 as [-> S2]|rewrite R2; reflexivity].
  eapply refines_bind; [apply for_inner_ok, scope_unbind with (1 := S2); exact OKb|].
  intros u h3 S3. eapply refines_bind; [apply IH, S3|]. intros w h4 S4. split; [reflexivity|exact S4].
Qed.

(* every binding construct first evaluates a sub-expression in a copy of the caller's dictionary *)
Lemma enter_scope : forall bi p h xs e, body_ok bi (length h) e ->
  refines (bi (copy_vars p h)) (spec e (get p h)) (scope h xs (get p h)).
Proof.
  intros bi p h xs e OK. eapply refines_mono; [intros h'; apply scope_weaken, incl_nil_l|].
  apply scope_eval_nil; [exact OK|apply scope_copy].
Qed.
Lemma refines_exit : forall o s g xs d, refines o s (scope g xs d) -> refines o s (ext g).
Proof. intros o s g xs d. apply refines_mono. intros h S. apply S. Qed.
(* operands share the caller's dictionary: a later one runs in an extension of the caller's heap *)
Lemma body_ok_later : forall bi p e h h1, body_ok bi p e -> (p < length h)%nat -> ext h h1 ->
  refines (bi h1) (spec e (get p h)) (ext h).
Proof.
  intros bi p e h h1 OK Hp E. rewrite <- (ext_get h h1 p E Hp).
  eapply refines_mono; [intros h2; apply ext_trans, E|]. apply OK. apply ext_length in E. lia.
Qed.

Theorem impl_refines_spec : forall e, wf e = true -> forall p, body_ok (impl e p) p e.
Proof.
  induction e as [v|x|a IHa b IHb|a IHa b IHb|x r IHr b IHb|x r1 IH1 y r2 IH2 b IHb|x v IHv b IHb|x v1 IH1 y v2 IH2 b IHb|s x r IHr c IHc];
    intros W p h Hp; cbn [wf] in W; rewrite ?andb_true_iff in W; cbn [impl spec].
  - split; [reflexivity|apply ext_refl].
  - destruct (lookup x (get p h)); [split; [reflexivity|apply ext_refl]|reflexivity].
  - destruct W as [Wa Wb]. eapply refines_bind; [apply (IHa Wa p h Hp)|]. intros u h1 E1.
    eapply refines_bind; [apply (body_ok_later _ _ _ _ _ (IHb Wb p) Hp E1)|]. intros w h2 E2. split; auto.
  - destruct W as [Wa Wb]. eapply refines_bind; [apply (IHa Wa p h Hp)|]. intros [|u0 ur] h1 E1; [split; auto|].
    eapply refines_bind; [apply (body_ok_later _ _ _ _ _ (IHb Wb p) Hp E1)|]. intros w h2 E2.
    destruct (add_v (u0 :: ur) w); [split; auto|reflexivity].
  - destruct W as [Wr Wb]. eapply refines_bind; [apply enter_scope, (IHr Wr)|]. intros vs h1 S1.
    eapply refines_exit, for_loop_ok, S1. apply (IHb Wb).
  - destruct W as [[[W1 W2] Wb] NM]. apply negb_true_iff in NM.
    eapply refines_bind; [apply enter_scope, (IH1 W1)|]. intros vs h1 S1.
    eapply refines_exit, (for_outer_ok _ _ _ _ _ r2 b), S1; [apply (IH2 W2)|apply (IHb Wb)|exact NM].
  - destruct W as [Wv Wb]. eapply refines_bind; [apply enter_scope, (IHv Wv)|]. intros u h1 S1.
    eapply refines_exit, scope_eval_nil, scope_bind, S1. apply (IHb Wb).
  - destruct W as [[W1 W2] Wb]. eapply refines_bind; [apply enter_scope, (IH1 W1)|]. intros u h1 S1.
    eapply refines_bind; [apply scope_eval_nil, scope_bind, S1; apply (IH2 W2)|]. intros w h2 S2.
    eapply refines_exit, scope_eval_nil, scope_bind, S2. apply (IHb Wb).
  - destruct W as [Wr Wc]. eapply refines_bind; [apply enter_scope, (IHr Wr)|]. intros vs h1 S1.
    eapply refines_exit, quant_loop_ok, S1. apply (IHc Wc).
Qed.

Lemma impl_value : forall e p h, wf e = true -> (p < length h)%nat -> option_map fst (impl e p h) = spec e (get p h).
Proof.
  intros e p h W Hp. assert (R := impl_refines_spec e W p h Hp).
  destruct (impl e p h) as [[v h']|]; [destruct R as [-> _]|rewrite R]; reflexivity.
Qed.
