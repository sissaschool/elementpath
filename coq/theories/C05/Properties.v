From Coq Require Import ZArith List Lia.
From EP Require Import C05.Model C05.Proofs.
From EP Require Gen.C05Shape.
Import ListNotations.
Open Scope Z_scope.

(* The implementation discipline (shared mutable variables dict behind shallow context copies, one dict copy per
   binding construct, iter_product and update() writing loop variables in place) computes exactly the lexically
   scoped semantics, and every dictionary that existed before the evaluation - the caller's included - is unchanged.
   For every expression accepted by the parser's range-variable check, every heap, every caller dictionary. *)
Theorem C05_scoping_refinement : forall e, wf e = true -> forall p h, (p < length h)%nat ->
  match impl e p h with
  | Some (v, h') => spec e (get p h) = Some v /\ firstn (length h) h' = h
  | None => spec e (get p h) = None
  end.
Proof. exact impl_refines_spec. Qed.
Print Assumptions C05_scoping_refinement.

(* the caller's variables after an evaluation are the caller's variables before it *)
Theorem C05_caller_variables_unchanged : forall e p h v h', wf e = true -> (p < length h)%nat ->
  impl e p h = Some (v, h') -> forall q, (q < length h)%nat -> get q h' = get q h.
Proof.
  intros e p h v h' W Hp E q Hq. assert (R := impl_refines_spec e W p h Hp). rewrite E in R.
  destruct R as (_ & X). apply ext_get; assumption.
Qed.
Print Assumptions C05_caller_variables_unchanged.

(* a variable of the same name read after a binding construct has its outer value *)
Theorem C05_outer_variable_after_binding : forall e x p h u h1 v, wf e = true -> (p < length h)%nat ->
  lookup x (get p h) = Some v -> impl e p h = Some (u, h1) -> impl (ESeq e (EVar x)) p h = Some (u ++ v, h1).
Proof.
  intros e x p h u h1 v W Hp L E. cbn [impl]. rewrite E.
  rewrite (C05_caller_variables_unchanged e p h u h1 W Hp E p Hp). rewrite L. reflexivity.
Qed.
Print Assumptions C05_outer_variable_after_binding.

(* history independence on the variables side: after any earlier evaluations (any extension of the heap) the same
   expression on the same caller dictionary yields the same items *)
Theorem C05_repeatable : forall e p h h', wf e = true -> (p < length h)%nat -> firstn (length h) h' = h ->
  option_map fst (impl e p h') = option_map fst (impl e p h).
Proof.
  intros e p h h' W Hp E. rewrite !impl_value, (ext_get h h' p E Hp); auto. apply ext_length in E. lia.
Qed.
Print Assumptions C05_repeatable.

(* not vacuous: binding in the shared dictionary (a 'for' without its dict copy) leaks — $x := 10,
   ((for $x in (1, 2) return $x), $x) gives (1, 2, 2) instead of (1, 2, 10) *)
Theorem C05_shared_dict_refuted : exists e p h,
  option_map fst (impl_shared e p h) <> spec e (get p h) /\ option_map fst (impl e p h) = spec e (get p h).
Proof.
  exists (ESeq (EFor 0 (ELit [1; 2]) (EVar 0)) (EVar 0)), 0%nat, [[(0%nat, [10])]]. vm_compute. split; [discriminate|reflexivity].
Qed.
Print Assumptions C05_shared_dict_refuted.

(* the two-variable 'for' is lexically scoped only because the parser rejects a range expression that mentions its
   own variable: with $y := 7, "for $x in (1, 2), $y in ($y + 1) return $y" would give (8, 9) instead of (8, 8) *)
Theorem C05_for2_needs_range_check : exists e p h,
  wf e = false /\ option_map fst (impl e p h) <> spec e (get p h).
Proof.
  exists (EFor2 0 (ELit [1; 2]) 1 (EAdd (EVar 1) (ELit [1])) (EVar 1)), 0%nat, [[(1%nat, [7])]]. vm_compute. split; [reflexivity|discriminate].
Qed.
Print Assumptions C05_for2_needs_range_check.

Example C05_nonvacuous :
  let e := ELet 0 (ELit [5]) (ESeq (EFor2 0 (ELit [1; 2]) 1 (ESeq (EVar 0) (EVar 2)) (EAdd (EVar 0) (EVar 1)))
                                   (ESeq (EVar 0) (EQuant true 0 (ELit [0; 3]) (EVar 0)))) in
  wf e = true /\ option_map fst (impl e 0 [[(2%nat, [100])]]) = Some [2; 101; 4; 102; 5; 1].
Proof. vm_compute. split; reflexivity. Qed.

(* the statements of /repo that the hand model mirrors are present in the source as read on this run (T-data,
   harness/shape.py -> Gen/C05Shape.v) *)
Theorem C05_source_shape : Gen.C05Shape.shape_ok = true.
Proof. reflexivity. Qed.
Print Assumptions C05_source_shape.
