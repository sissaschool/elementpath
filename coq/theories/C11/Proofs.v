(* C11 lemmas on the day arithmetic.  A date is an astronomical year and a day of that year; years (days_before_year, ylen)
   and months (dbm_spec, month_len) are cumulative counts with positive steps, so a day number has one such form
   (Section Cumulative).  todelta computes that form's number, and each branch of fromdelta names a year and a day of it. *)
From Coq Require Import ZArith List Bool Lia ZifyBool.
From EP Require Import Common.PyCalendar Gen.C11Helpers C11.Model.
Import ListNotations.
Open Scope Z_scope.

Lemma div_pred a n : 0 < n -> (a - 1) / n = a / n - (if a mod n =? 0 then 1 else 0).
Proof.
  intros Hn. pose proof (Z.div_mod a n ltac:(lia)). pose proof (Z.mod_pos_bound a n Hn).
  symmetry. destruct (a mod n =? 0) eqn:E.
  - apply (Z.div_unique _ _ _ (n - 1)); lia.
  - apply (Z.div_unique _ _ _ (a mod n - 1)); lia.
Qed.
Lemma div_mirror a n : 0 < n -> (- a - 1) / n = - (a / n) - 1.
Proof.
  intros Hn. pose proof (Z.div_mod a n ltac:(lia)). pose proof (Z.mod_pos_bound a n Hn).
  symmetry. apply (Z.div_unique _ _ _ (n - 1 - a mod n)); lia.
Qed.
Lemma mod_0_trans y n m : 0 < n -> 0 < m -> m mod n = 0 -> y mod m = 0 -> y mod n = 0.
Proof. intros Hn Hm. rewrite !Z.mod_divide by lia. apply Z.divide_trans. Qed.

(* the regenerated days_from_common_era is the number of days before 1 January, in both eras *)
Lemma dfce_ce : forall y, 1 <= y -> days_from_common_era (y - 1) = days_before_year y.
Proof.
  intros y Hy. unfold days_from_common_era, days_before_year.
  destruct (y - 1 >? 0) eqn:E1; [lia|].
  replace (y - 1) with 0 by lia. reflexivity.
Qed.
Lemma dfce_bce : forall y, y <= -1 -> days_from_common_era y = days_before_year (y + 1).
Proof.
  intros y Hy. unfold days_from_common_era, days_before_year.
  destruct (y >? 0) eqn:E1; [lia|]. destruct (y >=? -1) eqn:E2.
  - replace y with (-1) by lia. reflexivity.
  - replace (y + 1 - 1) with y by lia. rewrite !div_mirror; lia.
Qed.
Lemma dfce_step : forall y, days_before_year (y + 1) - days_before_year y = ylen (isleap y).
Proof.
  intros y. unfold days_before_year, ylen, isleap. replace (y + 1 - 1) with y by lia.
  rewrite !div_pred by lia.
  pose proof (mod_0_trans y 4 100 eq_refl eq_refl eq_refl). pose proof (mod_0_trans y 100 400 eq_refl eq_refl eq_refl).
  destruct (y mod 4 =? 0) eqn:A, (y mod 100 =? 0) eqn:B, (y mod 400 =? 0) eqn:C; cbn [andb orb negb]; lia.
Qed.

(* a strictly increasing cumulative count F with steps len: a total has one (index, remainder) form *)
Section Cumulative.
  Variables (F len : Z -> Z) (lo : Z).
  Hypothesis step : forall k, lo <= k -> F (k + 1) = F k + len k.
  Hypothesis pos : forall k, lo <= k -> 0 < len k.
  Lemma cum_mono : forall a b, lo <= a <= b -> F a <= F b.
  Proof.
    intros a b [Ha Hab]. revert b Hab. apply (Z.le_ind (fun b => F a <= F b)); [intros ? ? ->; reflexivity|lia|].
    intros m Hm IH. unfold Z.succ. rewrite step by lia. specialize (pos m). lia.
  Qed.
  Lemma cum_unique : forall k1 r1 k2 r2, lo <= k1 -> lo <= k2 ->
    F k1 + r1 = F k2 + r2 -> 0 <= r1 < len k1 -> 0 <= r2 < len k2 -> k1 = k2 /\ r1 = r2.
  Proof.
    intros k1 r1 k2 r2 L1 L2 E H1 H2. assert (k1 = k2); [|subst; lia].
    destruct (Z.lt_trichotomy k1 k2) as [L|[L|L]]; auto.
    - pose proof (cum_mono (k1 + 1) k2 ltac:(lia)). rewrite step in * by lia. lia.
    - pose proof (cum_mono (k2 + 1) k1 ltac:(lia)). rewrite step in * by lia. lia.
  Qed.
End Cumulative.

Lemma ylen_pos : forall l, 365 <= ylen l <= 366.
Proof. destruct l; cbn; lia. Qed.
(* a day number has exactly one (year, day-of-year) representation *)
Lemma repr_unique : forall y1 d1 y2 d2,
  days_before_year y1 + d1 = days_before_year y2 + d2 ->
  0 <= d1 < ylen (isleap y1) -> 0 <= d2 < ylen (isleap y2) -> y1 = y2 /\ d1 = d2.
Proof.
  intros y1 d1 y2 d2. apply (cum_unique _ (fun y => ylen (isleap y)) (Z.min y1 y2)); try lia.
  - intros k _. pose proof (dfce_step k). lia.
  - intros k _. pose proof (ylen_pos (isleap k)). lia.
Qed.

(* the days before a year given by its place in the 400 / 100 / 4 / 1-year cycles *)
Lemma dby_cycles a b c e y : y = 400 * a + 100 * b + 4 * c + e + 1 -> 0 <= b <= 3 -> 0 <= c <= 24 -> 0 <= e <= 3 ->
  days_before_year y = 146097 * a + 36524 * b + 1461 * c + 365 * e.
Proof. intros -> **. unfold days_before_year. Z.to_euclidean_division_equations. lia. Qed.

Lemma year_doy_ce_sound : forall N y doy, 0 < N -> year_doy_ce N = (y, doy) ->
  1 <= y /\ days_before_year y + doy = N /\ 0 <= doy < ylen (isleap y).
Proof.
  intros N y doy HN H. unfold year_doy_ce in H.
  change D400 with 146097 in H. change D100 with 36524 in H. change D4 with 1461 in H.
  remember (N / 146097) as a. remember (N mod 146097) as r1.
  remember (r1 / 36524) as b. remember (r1 mod 36524) as r2.
  remember (r2 / 1461) as c. remember (r2 mod 1461) as r3.
  remember (r3 / 365) as e. remember (r3 mod 365) as r4.
  assert (B : (0 <= r1 < 146097 /\ N = 146097 * a + r1) /\ (0 <= r2 < 36524 /\ r1 = 36524 * b + r2) /\
              (0 <= r3 < 1461 /\ r2 = 1461 * c + r3) /\ (0 <= r4 < 365 /\ r3 = 365 * e + r4))
    by (Z.to_euclidean_division_equations; lia).
  clear Heqa Heqr1 Heqb Heqr2 Heqc Heqr3 Heqe Heqr4.
  (* the length of the year as a difference of day counts, which dby_cycles evaluates *)
  rewrite <- dfce_step.
  (* the last day of a 4-year or 400-year cycle comes out as day 365 of the year before the next cycle starts *)
  destruct ((e =? 4) || (b =? 4)) eqn:E; injection H as <- <-.
  - destruct (b =? 4) eqn:E100.
    + rewrite (dby_cycles a 3 24 3), (dby_cycles (a + 1) 0 0 0) by lia. lia.
    + rewrite (dby_cycles a b c 3), (dby_cycles a b (c + 1) 0) by lia. lia.
  - rewrite dfce_step, (dby_cycles a b c e) by lia.
    pose proof (ylen_pos (isleap (a * 400 + b * 100 + c * 4 + e + 1))). lia.
Qed.

(* the calendar is symmetric around the leap year 0 *)
Lemma dby_mirror : forall k, days_before_year (1 - k) = - (days_before_year k + 366).
Proof.
  intros k. unfold days_before_year. replace (1 - k - 1) with (- (k - 1) - 1) by lia. rewrite !div_mirror; lia.
Qed.
Lemma ylen_mirror : forall k, ylen (isleap (- k)) = ylen (isleap k).
Proof.
  intros k. pose proof (dfce_step k). pose proof (dfce_step (- k)).
  pose proof (dby_mirror k). pose proof (dby_mirror (k + 1)).
  replace (1 - (k + 1)) with (- k) in * by lia. replace (- k + 1) with (1 - k) in * by lia. lia.
Qed.

Lemma year_back_bce_eq : forall N,
  year_back_bce N = let '(yc, doy) := year_doy_ce (- N - 366) in (- yc - 1, doy).
Proof.
  intros N. unfold year_back_bce, year_doy_ce.
  destruct ((_ =? 4) || (_ =? 4)); f_equal; lia.
Qed.

Lemma year_back_bce_sound : forall N y back, N < -366 -> year_back_bce N = (y, back) ->
  y <= -2 /\ days_before_year (y + 2) - back = N /\ 0 <= back < ylen (isleap (y + 1)).
Proof.
  intros N y back HN H. rewrite year_back_bce_eq in H.
  destruct (year_doy_ce (- N - 366)) as (yc, doy) eqn:E. injection H as <- <-.
  destruct (year_doy_ce_sound (- N - 366) yc doy ltac:(lia) E) as (H1 & H2 & H3).
  replace (- yc - 1 + 2) with (1 - yc) by lia. rewrite dby_mirror.
  replace (- yc - 1 + 1) with (- yc) by lia. rewrite ylen_mirror. lia.
Qed.

Definition doy_of (leap : bool) (m d : Z) : Z := dbm_spec leap (Z.to_nat m) + (d - 1).

Lemma month_cases : forall m, 1 <= m <= 12 ->
  m = 1 \/ m = 2 \/ m = 3 \/ m = 4 \/ m = 5 \/ m = 6 \/ m = 7 \/ m = 8 \/ m = 9 \/ m = 10 \/ m = 11 \/ m = 12.
Proof. lia. Qed.
Lemma month_table : forall leap m, 1 <= m <= 12 ->
  nth (Z.to_nat m) (mdays leap) 0 = month_len leap m /\ days_before_month leap m = dbm_spec leap (Z.to_nat m).
Proof.
  intros leap m Hm. apply month_cases in Hm.
  destruct leap; repeat destruct Hm as [->|Hm]; try subst m; split; reflexivity.
Qed.
Lemma month_len_pos : forall leap m, 0 < month_len leap m.
Proof. intros leap m. unfold month_len. destruct (m =? 2); [destruct leap|destruct (_ || _)]; lia. Qed.
Lemma dbm_step : forall leap m, 1 <= m ->
  dbm_spec leap (Z.to_nat (m + 1)) = dbm_spec leap (Z.to_nat m) + month_len leap m.
Proof.
  intros leap m Hm. rewrite Z2Nat.inj_add, Nat.add_1_r by lia.
  destruct (Z.to_nat m) as [|n] eqn:E; [lia|].
  change (dbm_spec leap (S (S n))) with (dbm_spec leap (S n) + month_len leap (Z.of_nat (S n))).
  rewrite <- E, Z2Nat.id by lia. reflexivity.
Qed.
Lemma dbm_year : forall leap, dbm_spec leap 13 = ylen leap.
Proof. destruct leap; reflexivity. Qed.

Lemma dbm_mono : forall leap a b, 1 <= a <= b -> dbm_spec leap (Z.to_nat a) <= dbm_spec leap (Z.to_nat b).
Proof.
  intros leap. apply (cum_mono (fun k => dbm_spec leap (Z.to_nat k)) (month_len leap) 1); intros k Hk;
    [apply dbm_step; exact Hk|apply month_len_pos].
Qed.
Lemma doy_range : forall leap m d, 1 <= m <= 12 -> 1 <= d <= month_len leap m -> 0 <= doy_of leap m d < ylen leap.
Proof.
  intros leap m d Hm Hd. unfold doy_of. rewrite <- dbm_year.
  pose proof (dbm_mono leap 1 m ltac:(lia)). pose proof (dbm_mono leap (m + 1) 13 ltac:(lia)) as H13.
  rewrite dbm_step in H13 by lia. change (dbm_spec leap (Z.to_nat 1)) with 0 in *. change (Z.to_nat 13) with 13%nat in *. lia.
Qed.
Lemma doy_of_inj : forall leap m1 d1 m2 d2, 1 <= m1 -> 1 <= d1 <= month_len leap m1 -> 1 <= m2 -> 1 <= d2 <= month_len leap m2 ->
  doy_of leap m1 d1 = doy_of leap m2 d2 -> m1 = m2 /\ d1 = d2.
Proof.
  intros leap m1 d1 m2 d2 M1 D1 M2 D2 E.
  destruct (cum_unique (fun k => dbm_spec leap (Z.to_nat k)) (month_len leap) 1 (dbm_step leap)
              (fun k _ => month_len_pos leap k) m1 (d1 - 1) m2 (d2 - 1)); try lia. exact E.
Qed.

(* md_of_doy walks the months down the same count *)
Lemma md_of_doy_from_spec : forall leap fuel k r m d, 1 <= k -> k + Z.of_nat fuel = 12 ->
  0 <= r -> dbm_spec leap (Z.to_nat k) + r < ylen leap -> md_of_doy_from leap k r fuel = (m, d) ->
  1 <= m <= 12 /\ 1 <= d <= month_len leap m /\ doy_of leap m d = dbm_spec leap (Z.to_nat k) + r.
Proof.
  intros leap. induction fuel as [|f IH]; intros k r m d Hk Hf Hr Hlt H; cbn [md_of_doy_from] in H.
  - injection H as <- <-. assert (k = 12) by lia. subst k. rewrite <- dbm_year in Hlt.
    change 13%nat with (Z.to_nat (12 + 1)) in Hlt. rewrite dbm_step in Hlt by lia. unfold doy_of. lia.
  - rewrite (proj1 (month_table leap k ltac:(lia))) in H. destruct (r <? month_len leap k) eqn:E.
    + injection H as <- <-. unfold doy_of. lia.
    + pose proof (dbm_step leap k Hk). apply IH in H; lia.
Qed.
Lemma md_of_doy_inv : forall leap doy m d, 0 <= doy < ylen leap -> md_of_doy leap doy = (m, d) ->
  1 <= m <= 12 /\ 1 <= d <= month_len leap m /\ doy_of leap m d = doy.
Proof.
  intros leap doy m d Hd E. apply md_of_doy_from_spec in E; change (dbm_spec leap (Z.to_nat 1)) with 0 in *; lia.
Qed.

Lemma day_number_doy : forall y m d,
  day_number y m d = days_before_year (astro y) + doy_of (isleap (astro y)) m d.
Proof. intros. unfold day_number, doy_of. lia. Qed.
Lemma todelta_day_number : forall y m d, valid_date y m d -> todelta_days y m d = day_number y m d.
Proof.
  intros y m d (Hy & Hm & Hd). unfold todelta_days, day_number, astro.
  destruct (y >? 0) eqn:E; rewrite ?dfce_ce, ?dfce_bce by lia; rewrite (proj2 (month_table _ m Hm)); reflexivity.
Qed.

(* a valid date is its (astronomical year, day of the year), and these are unique for a day number *)
Lemma astro_pos : forall y, 0 < y -> astro y = y.
Proof. intros y H. unfold astro. destruct (y >? 0) eqn:E; lia. Qed.
Lemma astro_neg : forall y, y < 0 -> astro y = y + 1.
Proof. intros y H. unfold astro. destruct (y >? 0) eqn:E; lia. Qed.
Lemma astro_inj : forall y1 y2, y1 <> 0 -> y2 <> 0 -> astro y1 = astro y2 -> y1 = y2.
Proof. intros y1 y2. unfold astro. destruct (y1 >? 0) eqn:E1, (y2 >? 0) eqn:E2; lia. Qed.
Lemma day_number_inj : forall y1 m1 d1 y2 m2 d2, valid_date y1 m1 d1 -> valid_date y2 m2 d2 ->
  day_number y1 m1 d1 = day_number y2 m2 d2 -> (y1, m1, d1) = (y2, m2, d2).
Proof.
  intros y1 m1 d1 y2 m2 d2 (Y1 & M1 & D1) (Y2 & M2 & D2) E. rewrite !day_number_doy in E.
  apply repr_unique in E; [|apply doy_range; assumption..]. destruct E as (Ea & Ed).
  apply astro_inj in Ea as ->; [|assumption..].
  apply doy_of_inj in Ed as (-> & ->); [reflexivity|lia..].
Qed.
Lemma date_of_doy : forall y a doy m d N, md_of_doy (isleap a) doy = (m, d) -> astro y = a -> y <> 0 ->
  days_before_year a + doy = N -> 0 <= doy < ylen (isleap a) -> valid_date y m d /\ day_number y m d = N.
Proof.
  intros y a doy m d N E <- Hy <- Hd. destruct (md_of_doy_inv _ _ _ _ Hd E) as (A & B & C).
  rewrite day_number_doy, C. repeat split; assumption || lia.
Qed.

(* every branch of fromdelta: the year, its astronomical number and the day of that year, handed to date_of_doy *)
Lemma fromdelta_valid : forall N y m d, fromdelta_days N = (y, m, d) ->
  valid_date y m d /\ day_number y m d = N.
Proof.
  intros N y m d H. unfold fromdelta_days in H.
  destruct (N >? 0) eqn:E0; [|destruct (N =? 0) eqn:E1].
  - unfold fromdelta_ce in H. destruct (year_doy_ce N) as (y', doy) eqn:E.
    destruct (year_doy_ce_sound N y' doy ltac:(lia) E) as (H1 & H2 & H3).
    destruct (md_of_doy (isleap y') doy) as (m', d') eqn:Em. injection H as <- <- <-.
    apply (date_of_doy y' y' doy _ _ _ Em); [apply astro_pos| | |]; lia.
  - (* day 0 of year 1 *)
    injection H as <- <- <-. apply (date_of_doy 1 1 0 _ _ _ eq_refl eq_refl).
    + discriminate.
    + change (days_before_year 1) with 0. lia.
    + change (ylen (isleap 1)) with 365. lia.
  - unfold fromdelta_bce in H. destruct (N >=? -366) eqn:E2.
    + (* year -1 is the astronomical year 0, a leap year that starts at day -366 *)
      destruct (md_of_doy true (366 + N)) as (m', d') eqn:Em. injection H as <- <- <-.
      apply (date_of_doy (-1) 0 (366 + N) _ _ _ Em eq_refl).
      * discriminate.
      * change (days_before_year 0) with (-366). lia.
      * change (ylen (isleap 0)) with 366. lia.
    + destruct (year_back_bce N) as (y', back) eqn:E.
      destruct (year_back_bce_sound N y' back ltac:(lia) E) as (H1 & H2 & H3).
      destruct (back =? 0) eqn:E3.
      * (* 1 January of the year after y' *)
        injection H as <- <- <-. pose proof (ylen_pos (isleap (y' + 2))).
        apply (date_of_doy (y' + 1) (y' + 2) 0 1 1); [destruct (isleap (y' + 2)); reflexivity|rewrite astro_neg| | |]; lia.
      * (* back days before the end of y', whose astronomical number is y' + 1 *)
        destruct (md_of_doy (isleap (y' + 1)) (ylen (isleap (y' + 1)) - back)) as (m', d') eqn:Em.
        injection H as <- <- <-. pose proof (dfce_step (y' + 1)) as Hs. replace (y' + 1 + 1) with (y' + 2) in Hs by lia.
        apply (date_of_doy y' (y' + 1) (ylen (isleap (y' + 1)) - back) _ _ _ Em); [apply astro_neg| | |]; lia.
Qed.

Lemma fromdelta_todelta : forall y m d, valid_date y m d ->
  fromdelta_days (todelta_days y m d) = (y, m, d).
Proof.
  intros y m d Hv. rewrite (todelta_day_number y m d Hv).
  destruct (fromdelta_days (day_number y m d)) as ((y', m'), d') eqn:E.
  apply fromdelta_valid in E as (Hv' & E). exact (day_number_inj _ _ _ _ _ _ Hv' Hv E).
Qed.
Lemma todelta_fromdelta : forall N, let '(y, m, d) := fromdelta_days N in todelta_days y m d = N.
Proof.
  intros N. destruct (fromdelta_days N) as ((y, m), d) eqn:E.
  destruct (fromdelta_valid N y m d E) as (Hv & Hn). rewrite todelta_day_number; auto.
Qed.

Lemma from_to_micros : forall y m d tod, valid_date y m d -> 0 <= tod < US_PER_DAY ->
  from_micros (to_micros y m d tod) = (y, m, d, tod).
Proof.
  intros y m d tod Hv Ht. unfold from_micros, to_micros.
  rewrite Z.div_add_l, Z.div_small, Z.add_0_r, Z.add_comm, Z.mod_add, Z.mod_small by (assumption || discriminate).
  rewrite fromdelta_todelta by exact Hv. reflexivity.
Qed.

Lemma adjust_day_spec : forall y m d, 1 <= m <= 12 -> d <= 31 -> adjust_day y m d = Z.min d (month_len (isleap y) m).
Proof.
  intros y m d Hm Hd. unfold adjust_day, month_len.
  apply month_cases in Hm. repeat destruct Hm as [->|Hm]; try subst m; cbn [Z.eqb Pos.eqb orb]; destruct (isleap y); lia.
Qed.
