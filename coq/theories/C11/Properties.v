From Coq Require Import ZArith Lia.
From EP Require Import Common.PyCalendar Gen.C11Helpers C11.Model C11.Proofs.
Open Scope Z_scope.

(* todelta is the proleptic Gregorian day number: every valid date, BCE years and years beyond 9999 included *)
Theorem C11_todelta_is_day_number : forall y m d, valid_date y m d -> todelta_days y m d = day_number y m d.
Proof. exact todelta_day_number. Qed.
Print Assumptions C11_todelta_is_day_number.

(* converting a value to its timeline offset and back is the identity ... *)
Theorem C11_delta_roundtrip : forall y m d tod, valid_date y m d -> 0 <= tod < US_PER_DAY ->
  from_micros (to_micros y m d tod) = (y, m, d, tod).
Proof. exact from_to_micros. Qed.
Print Assumptions C11_delta_roundtrip.
(* ... and every offset is the offset of exactly the value fromdelta returns *)
Theorem C11_offset_roundtrip : forall t, let '(y, m, d, tod) := from_micros t in
  to_micros y m d tod = t /\ valid_date y m d /\ 0 <= tod < US_PER_DAY.
Proof.
  intros t. unfold from_micros. destruct (fromdelta_days (t / US_PER_DAY)) as ((y, m), d) eqn:E.
  destruct (fromdelta_valid _ _ _ _ E) as (Hv & Hn). unfold to_micros. rewrite todelta_day_number, Hn by exact Hv.
  pose proof (Z.div_mod t US_PER_DAY ltac:(discriminate)). pose proof (Z.mod_pos_bound t US_PER_DAY eq_refl).
  split; [lia|split; assumption].
Qed.
Print Assumptions C11_offset_roundtrip.

(* adding durations one after the other adds them up, from any starting fields *)
Lemma add_duration_add : forall y m d tod a b,
  let '(y1, m1, d1, t1) := add_duration y m d tod a in add_duration y1 m1 d1 t1 b = add_duration y m d tod (a + b).
Proof.
  intros y m d tod a b. unfold add_duration. pose proof (C11_offset_roundtrip (to_micros y m d tod + a)) as H.
  destruct (from_micros (to_micros y m d tod + a)) as (((y1, m1), d1), t1). destruct H as (-> & _).
  rewrite Z.add_assoc. reflexivity.
Qed.

(* d + dur - dur = d for every dayTimeDuration (microseconds, any sign and size) *)
Theorem C11_add_sub_inverse : forall y m d tod dur, valid_date y m d -> 0 <= tod < US_PER_DAY ->
  let '(y1, m1, d1, t1) := add_duration y m d tod dur in add_duration y1 m1 d1 t1 (- dur) = (y, m, d, tod).
Proof.
  intros y m d tod dur Hv Ht. pose proof (add_duration_add y m d tod dur (- dur)) as H.
  destruct (add_duration y m d tod dur) as (((y1, m1), d1), t1). rewrite H, Z.add_opp_diag_r.
  unfold add_duration. rewrite Z.add_0_r. apply from_to_micros; assumption.
Qed.
Print Assumptions C11_add_sub_inverse.

(* d1 + (d2 - d1) = d2 and d2 - d1 is the elapsed time, since both are the difference of instants *)
Theorem C11_diff_elapsed : forall y1 m1 d1 t1 y2 m2 d2 t2, valid_date y2 m2 d2 -> 0 <= t2 < US_PER_DAY ->
  add_duration y1 m1 d1 t1 (to_micros y2 m2 d2 t2 - to_micros y1 m1 d1 t1) = (y2, m2, d2, t2).
Proof.
  intros. unfold add_duration.
  replace (to_micros y1 m1 d1 t1 + (to_micros y2 m2 d2 t2 - to_micros y1 m1 d1 t1)) with (to_micros y2 m2 d2 t2) by lia.
  apply from_to_micros; assumption.
Qed.
Print Assumptions C11_diff_elapsed.

(* the order of instants is the order of (year, month, day, time): to_micros is strictly monotone, hence injective *)
Theorem C11_instants_injective : forall y1 m1 d1 t1 y2 m2 d2 t2,
  valid_date y1 m1 d1 -> 0 <= t1 < US_PER_DAY -> valid_date y2 m2 d2 -> 0 <= t2 < US_PER_DAY ->
  to_micros y1 m1 d1 t1 = to_micros y2 m2 d2 t2 -> (y1, m1, d1, t1) = (y2, m2, d2, t2).
Proof.
  intros y1 m1 d1 t1 y2 m2 d2 t2 V1 T1 V2 T2 E.
  rewrite <- (from_to_micros y1 m1 d1 t1 V1 T1), <- (from_to_micros y2 m2 d2 t2 V2 T2), E. reflexivity.
Qed.
Print Assumptions C11_instants_injective.

(* the regenerated days_from_common_era counts the days before 1 January (both eras), one leap rule *)
Theorem C11_dfce_spec : forall y,
  (1 <= y -> days_from_common_era (y - 1) = days_before_year y) /\
  (y <= -1 -> days_from_common_era y = days_before_year (y + 1)) /\
  days_before_year (y + 1) - days_before_year y = ylen (isleap y).
Proof. intros y. split; [exact (dfce_ce y)|split; [exact (dfce_bce y)|exact (dfce_step y)]]. Qed.
Print Assumptions C11_dfce_spec.

(* adding a yearMonthDuration moves the month count exactly (astronomical years, so across the BCE/CE boundary
   and beyond 9999 too) and clamps the day to the target month's length *)
Theorem C11_ym_add_clamps : forall y m d k, 1 <= m <= 12 -> d <= 31 ->
  let '(y', m', d') := add_months y m d k in
  y' <> 0 /\ 1 <= m' <= 12 /\ 12 * astro y' + (m' - 1) = 12 * astro y + (m - 1) + k /\
  d' = Z.min d (month_len (isleap (astro y')) m').
Proof.
  intros y m d k Hm Hd. unfold add_months.
  pose proof (Z.div_mod (m - 1 + k) 12 ltac:(discriminate)). pose proof (Z.mod_pos_bound (m - 1 + k) 12 eq_refl).
  set (a' := astro y + (m - 1 + k) / 12) in *.
  assert (Ha : astro (if a' >? 0 then a' else a' - 1) = a')
    by (destruct (a' >? 0) eqn:E; [apply astro_pos|rewrite astro_neg]; lia).
  rewrite Ha. split; [destruct (a' >? 0) eqn:E; lia|]. split; [lia|]. split; [lia|]. apply adjust_day_spec; lia.
Qed.
Print Assumptions C11_ym_add_clamps.

Example C11_nonvacuous :
  valid_date (-821) 1 1 /\ valid_date 12000 2 29 /\ valid_date (-5) 2 29 /\
  from_micros (to_micros (-821) 1 1 45015000000) = (-821, 1, 1, 45015000000) /\
  add_duration 9999 12 31 86399500000 1000000 = (10000, 1, 1, 500000) /\
  add_months 2000 1 31 1 = (2000, 2, 29) /\ add_months 1 1 31 (-1) = (-1, 12, 31).
Proof. unfold valid_date. vm_compute. repeat split; discriminate. Qed.
