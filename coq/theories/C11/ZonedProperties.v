(* C11 property theorems on values with timezones: "comparison operators order values as instants on the timeline;
   adjust-*-to-timezone and the implicit timezone preserve the instant; d2 - d1 equals the true elapsed time". *)
From Coq Require Import ZArith List Lia.
From EP Require Import C11.Model C11.Zoned C11.ZonedProofs.
From EP Require Gen.C11Shape.
Import ListNotations.
Open Scope Z_scope.

(* the comparison of the code (implicit timezone set on copies of the operands, then AbstractDateTime._compare) is the
   order of the instants, for every pair of values, with or without timezone, and every context *)
Theorem C11_comparison_is_instant_order : forall ctx a b, cmp_impl ctx a b = cmp_spec (imp_of ctx) a b.
Proof. intros. unfold cmp_impl, cmp_spec. rewrite cmp_values_utc, !instant_with_implicit. reflexivity. Qed.
Print Assumptions C11_comparison_is_instant_order.

(* and the minus operator returns the elapsed time between the instants *)
Theorem C11_subtraction_is_elapsed_time : forall ctx a b, sub_impl ctx a b = sub_spec (imp_of ctx) a b.
Proof. intros. unfold sub_impl, sub_spec. rewrite !instant_with_implicit. reflexivity. Qed.
Print Assumptions C11_subtraction_is_elapsed_time.

(* comparison and subtraction agree: a op b iff (a - b) op 0; the order is antisymmetric and transitive; eq is the
   equality of instants *)
Theorem C11_comparison_agrees_with_subtraction : forall imp a b, cmp_spec imp a b = (sub_spec imp a b ?= 0).
Proof. intros. apply Z.compare_sub. Qed.
Print Assumptions C11_comparison_agrees_with_subtraction.
Theorem C11_instant_order_laws : forall imp a b c,
  cmp_spec imp b a = CompOpp (cmp_spec imp a b) /\
  (cmp_spec imp a b = Lt -> cmp_spec imp b c = Lt -> cmp_spec imp a c = Lt) /\
  (cmp_spec imp a b = Eq <-> instant imp a = instant imp b).
Proof.
  intros. unfold cmp_spec. split; [apply Z.compare_antisym|split; [rewrite !Z.compare_lt_iff; lia|apply Z.compare_eq_iff]].
Qed.
Print Assumptions C11_instant_order_laws.

(* the comparison without the implicit timezone (the code before the repair) orders the instants only when the
   implicit timezone is UTC *)
Theorem C11_comparison_without_implicit_timezone_refuted :
  (exists ctx a b, cmp_old ctx a b <> cmp_spec (imp_of ctx) a b) /\
  (forall ctx a b, imp_of ctx = 0 -> cmp_old ctx a b = cmp_spec (imp_of ctx) a b).
Proof.
  split.
  - exists (Some (-300)), {| local := 43200000000; tz := None |}, {| local := 61200000000; tz := Some 0 |}.
    vm_compute. discriminate.
  - intros ctx a b H. unfold cmp_old, cmp_spec. rewrite cmp_values_utc, H.
    destruct a as [la [ta|]], b as [lb [tb|]]; reflexivity.
Qed.
Print Assumptions C11_comparison_without_implicit_timezone_refuted.

(* fn:adjust-dateTime-to-timezone: the instant of a value with timezone is preserved (whatever the implicit timezone),
   the result has the requested timezone, a value without timezone keeps its fields, () removes the timezone and keeps
   the fields, and adjusting to the implicit timezone preserves the instant of every value *)
Theorem C11_adjust_preserves_instant : forall imp v z,
  (forall z0, tz v = Some z0 -> instant imp (adjust v (Some z)) = instant imp v) /\
  tz (adjust v (Some z)) = Some z /\
  (tz v = None -> local (adjust v (Some z)) = local v) /\
  adjust v None = {| local := local v; tz := None |} /\
  instant imp (adjust v (Some imp)) = instant imp v.
Proof.
  intros imp [l t] z. unfold adjust, instant; cbn [tz local].
  split; [intros z0 ->; cbn [tz local]; lia|]. split; [destruct t; reflexivity|]. split; [intros ->; reflexivity|].
  split; [reflexivity|destruct t; cbn [tz local]; lia].
Qed.
Print Assumptions C11_adjust_preserves_instant.

(* fn:adjust-date-to-timezone: the day that contains the adjusted starting instant *)
Theorem C11_adjust_date_is_containing_day : forall v target,
  let r := adjust v target in let d := adjust_date v target in
  tz d = tz r /\ local d <= local r < local d + US_PER_DAY /\ (local d) mod US_PER_DAY = 0.
Proof. intros v target. cbn zeta. unfold adjust_date; cbn [tz local]. split; [reflexivity|apply day_floor_spec]. Qed.
Print Assumptions C11_adjust_date_is_containing_day.

(* fn:max / fn:min of date/time values: an item of the sequence with the greatest / least instant *)
Theorem C11_extreme_instant : forall imp best l,
  In (extreme true imp best l) (best :: l) /\ In (extreme false imp best l) (best :: l) /\
  (forall x, In x (best :: l) -> instant imp x <= instant imp (extreme true imp best l)) /\
  (forall x, In x (best :: l) -> instant imp (extreme false imp best l) <= instant imp x).
Proof.
  intros. split; [apply extreme_in|]. split; [apply extreme_in|]. split; [apply (extreme_opt true)|apply (extreme_opt false)].
Qed.
Print Assumptions C11_extreme_instant.

(* non-vacuity: 2000-01-01T12:00:00 and 2000-01-01T17:00:00Z are the same instant when the implicit timezone is -05:00 and
   5 hours apart when it is UTC *)
Example C11_zoned_nonvacuous :
  let a := {| local := to_micros 2000 1 1 43200000000; tz := None |} in
  let b := {| local := to_micros 2000 1 1 61200000000; tz := Some 0 |} in
  cmp_impl (Some (-300)) a b = Eq /\ cmp_impl None a b = Lt /\ sub_impl (Some (-300)) a b = 0 /\
  sub_impl None a b = - 18000000000 /\ cmp_old (Some (-300)) a b = Lt.
Proof. vm_compute. repeat split. Qed.

(* the statements of /repo that the zoned model mirrors (implicit timezone set on copies of the operands of comparisons, of the
   minus operator and of min / max; AbstractDateTime._compare; adjust_datetime) are present in the source as read on this run
   (T-data, harness/shape.py -> Gen/C11Shape.v) *)
Theorem C11_source_shape : Gen.C11Shape.shape_ok = true.
Proof. reflexivity. Qed.
Print Assumptions C11_source_shape.
