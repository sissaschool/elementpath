From Coq Require Import ZArith List Lia.
From EP Require Import C11.Model C11.Proofs C11.Components C11.ComponentsProofs.
Import ListNotations.
Open Scope Z_scope.

(* the six *-from-duration functions as they are written in /repo (re-translated on every run) return the F&O
   components of every duration: truncating division of the months and of the seconds, fraction kept in the seconds *)
Theorem C11_duration_components : forall months us, dur_impl months us = dur_spec months us.
Proof. intros. rewrite dur_impl_signed, dur_spec_signed. reflexivity. Qed.
Print Assumptions C11_duration_components.
(* the components are the value's own: they recompose the months and the seconds exactly ... *)
Theorem C11_duration_components_recompose : forall months us,
  recompose_months (dur_impl months us) = months /\ recompose_us (dur_impl months us) = us.
Proof.
  intros months us. rewrite dur_impl_signed. unfold signed, recompose_months. cbn [app nth].
  split; [rewrite Z.mul_comm; symmetry; apply Z.quot_rem'|].
  rewrite mag_recompose, Z.mul_comm. apply Z.abs_sgn.
Qed.
Print Assumptions C11_duration_components_recompose.
(* ... each has the sign of the value and stays below its unit (a negative duration has non-positive components) *)
Theorem C11_duration_components_bounds : forall months us,
  match dur_impl months us with
  | [y; mo; d; h; mi; s] =>
      (0 <= months -> 0 <= y /\ 0 <= mo < 12) /\ (months <= 0 -> y <= 0 /\ -12 < mo <= 0) /\
      (0 <= us -> 0 <= d /\ 0 <= h < 24 /\ 0 <= mi < 60 /\ 0 <= s < US_PER_MINUTE) /\
      (us <= 0 -> d <= 0 /\ -24 < h <= 0 /\ -60 < mi <= 0 /\ - US_PER_MINUTE < s <= 0)
  | _ => False
  end.
Proof.
  intros months us. rewrite dur_impl_signed. unfold signed, mag. cbn [map app].
  split; [intros; Z.to_euclidean_division_equations; lia|]. split; [intros; Z.to_euclidean_division_equations; lia|].
  pose proof (mag_bounds (Z.abs us) (Z.abs_nonneg us)) as B. unfold mag in B.
  lia.
Qed.
Print Assumptions C11_duration_components_bounds.

(* dateTime: the components read back from the timeline offset of a value are the fields the value was built from -
   every valid date (BCE years and years beyond 9999 included), every time of day with microseconds *)
Theorem C11_datetime_components_own : forall y m d h mi s_us, valid_date y m d ->
  0 <= h < 24 -> 0 <= mi < 60 -> 0 <= s_us < US_PER_MINUTE ->
  dt_components y m d (tod_of h mi s_us) = [y; m; d; h; mi; s_us].
Proof.
  intros y m d h mi s V Hh Hm Hs. unfold dt_components.
  destruct (fields_of_tod h mi s Hh Hm Hs) as (R & A & B & C).
  rewrite (from_to_micros y m d _ V R). rewrite A, B, C. reflexivity.
Qed.
Print Assumptions C11_datetime_components_own.
Theorem C11_time_components_recompose : forall tod, 0 <= tod < US_PER_DAY ->
  tod_of (hour_of tod) (minute_of tod) (seconds_impl (second_of tod) (micro_of tod)) = tod /\
  0 <= hour_of tod < 24 /\ 0 <= minute_of tod < 60 /\ 0 <= second_of tod < 60 /\ 0 <= micro_of tod < US.
Proof.
  intros tod H. unfold tod_of, hour_of, minute_of, second_of, micro_of, seconds_impl,
    US_PER_DAY, US_PER_HOUR, US_PER_MINUTE, US in *. Z.to_euclidean_division_equations. lia.
Qed.
Print Assumptions C11_time_components_recompose.
(* before the repair seconds-from-dateTime concatenated the unpadded microsecond field: right exactly when that field
   is zero or has six digits *)
Theorem C11_seconds_old_concatenation : forall second micro, 0 <= micro < US ->
  (seconds_old second micro = seconds_impl second micro <-> micro = 0 \/ 100000 <= micro).
Proof.
  intros second micro H. unfold seconds_old, seconds_impl, ndigits, US in *.
  destruct (micro =? 0) eqn:E0; [lia|].
  destruct (micro <? 10) eqn:E1; [lia|].
  destruct (micro <? 100) eqn:E2; [lia|].
  destruct (micro <? 1000) eqn:E3; [lia|].
  destruct (micro <? 10000) eqn:E4; [lia|].
  destruct (micro <? 100000) eqn:E5; [lia|].
  lia.
Qed.
Print Assumptions C11_seconds_old_concatenation.
Theorem C11_seconds_old_refuted : exists second micro, 0 <= micro < US /\ seconds_old second micro <> seconds_impl second micro.
Proof. exists 1, 5000. split; [unfold US; split; [discriminate|reflexivity]|vm_compute; discriminate]. Qed.
Print Assumptions C11_seconds_old_refuted.

Example C11_components_nonvacuous :
  dur_impl (-14) (-129784500000) = [-1; -2; -1; -12; -3; -4500000] /\
  dt_components (-44) 3 15 (tod_of 23 59 59999999) = [-44; 3; 15; 23; 59; 59999999] /\ valid_date (-44) 3 15.
Proof. vm_compute. repeat split; discriminate. Qed.
