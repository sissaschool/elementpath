(* C11 component extraction: proofs.
   Durations: the code and the F&O definition both take the components of the magnitude by floor division and put the
   sign of the value back on each; [signed] is that common form, and the theorems are read off it. *)
From Coq Require Import ZArith List Lia ZifyBool.
From EP Require Import Gen.C11Components C11.Model C11.Components.
Import ListNotations.
Open Scope Z_scope.

(* an odd function passes the sign through *)
Lemma sgn_mul_odd : forall (g : Z -> Z) x w, g 0 = 0 -> g (- w) = - g w -> g (Z.sgn x * w) = Z.sgn x * g w.
Proof.
  intros g x w G0 Gm. destruct (Z.sgn_spec x) as [(_ & ->)|[(_ & ->)|(_ & ->)]]; rewrite ?Z.mul_1_l;
    [reflexivity|exact G0|exact Gm].
Qed.
Lemma quot_sgn : forall x w n, 0 <= w -> 0 < n -> Z.quot (Z.sgn x * w) n = Z.sgn x * (w / n).
Proof.
  intros x w n Hw Hn. rewrite <- (Z.quot_div_nonneg w n Hw Hn).
  apply (sgn_mul_odd (fun a => Z.quot a n)); [reflexivity|apply Z.quot_opp_l; lia].
Qed.
Lemma rem_sgn : forall x w n, 0 <= w -> 0 < n -> Z.rem (Z.sgn x * w) n = Z.sgn x * (w mod n).
Proof.
  intros x w n Hw Hn. rewrite <- (Z.rem_mod_nonneg w n Hw Hn).
  apply (sgn_mul_odd (fun a => Z.rem a n)); [reflexivity|apply Z.rem_opp_l; lia].
Qed.
(* the shape of the generated *-from-duration functions: f on a value >= 0, - f (abs) below *)
Lemma branch_sgn : forall (f : Z -> Z) x w, f 0 = 0 -> 0 <= w ->
  (if Z.sgn x * w >=? 0 then f (Z.sgn x * w) else - f (Z.abs (Z.sgn x * w))) = Z.sgn x * f w.
Proof.
  intros f x w F Hw. destruct (Z.sgn_spec x) as [(_ & ->)|[(_ & ->)|(_ & ->)]].
  - rewrite !Z.mul_1_l. destruct (w >=? 0) eqn:E; [reflexivity|lia].
  - cbn. rewrite F. reflexivity.
  - rewrite !Z.mul_opp_l, !Z.mul_1_l, Z.abs_opp, (Z.abs_eq w Hw). destruct (- w >=? 0) eqn:E; [|reflexivity].
    replace w with 0 by lia. cbn. rewrite F. reflexivity.
Qed.

Definition mag (z : Z) : list Z :=
  [z / US_PER_DAY; z mod US_PER_DAY / US_PER_HOUR; z mod US_PER_HOUR / US_PER_MINUTE; z mod US_PER_MINUTE].
Definition signed (months us : Z) : list Z :=
  [Z.quot months 12; Z.rem months 12] ++ map (Z.mul (Z.sgn us)) (mag (Z.abs us)).

(* the code's route to the same components: through the whole seconds *)
Lemma mag_seconds : forall z,
  [z / US / 86400; z / US / 3600 mod 24; z / US / 60 mod 60; z / US mod 60 * US + z mod US] = mag z.
Proof.
  intros z. unfold mag, US, US_PER_DAY, US_PER_HOUR, US_PER_MINUTE.
  f_equal; [|f_equal; [|f_equal; [|f_equal]]]; Z.to_euclidean_division_equations; lia.
Qed.
Lemma mag_recompose : forall a b s z, recompose_us (a :: b :: map (Z.mul s) (mag z)) = s * z.
Proof.
  intros a b s z. unfold recompose_us, mag. cbn [map nth]. rewrite <- !Z.mul_assoc, <- !Z.mul_add_distr_l. f_equal.
  unfold US_PER_DAY, US_PER_HOUR, US_PER_MINUTE. Z.to_euclidean_division_equations. lia.
Qed.
Lemma mag_bounds : forall z, 0 <= z ->
  match mag z with
  | [d; h; mi; s] => 0 <= d /\ 0 <= h < 24 /\ 0 <= mi < 60 /\ 0 <= s < US_PER_MINUTE
  | _ => False
  end.
Proof.
  intros z Hz. unfold mag, US_PER_DAY, US_PER_HOUR, US_PER_MINUTE. Z.to_euclidean_division_equations. lia.
Qed.

Lemma years_quot : forall m, years_from_duration m = Z.quot m 12.
Proof. intros m. unfold years_from_duration. destruct (m >=? 0) eqn:E; Z.to_euclidean_division_equations; lia. Qed.
Lemma months_rem : forall m, months_from_duration m = Z.rem m 12.
Proof. intros m. unfold months_from_duration. destruct (m >=? 0) eqn:E; Z.to_euclidean_division_equations; lia. Qed.

Lemma dur_spec_signed : forall months us, dur_spec months us = signed months us.
Proof.
  intros months us. pose proof (Z.abs_nonneg us) as A. rewrite <- (Z.abs_sgn us) at 1. rewrite Z.mul_comm.
  unfold dur_spec, signed, mag. cbn [map app].
  rewrite !rem_sgn, !quot_sgn by first [exact A|reflexivity|apply Z.mod_pos_bound; reflexivity]. reflexivity.
Qed.
Lemma dur_impl_signed : forall months us, dur_impl months us = signed months us.
Proof.
  intros months us. unfold dur_impl, signed, whole, frac. rewrite <- mag_seconds, years_quot, months_rem. cbn [map app].
  unfold days_from_duration, hours_from_duration, minutes_from_duration, seconds_from_duration.
  assert (W : 0 <= Z.abs us / US) by (apply Z.div_pos; [apply Z.abs_nonneg|reflexivity]).
  rewrite (branch_sgn (fun s => s / 86400) us _ eq_refl W), (branch_sgn (fun s => s / 3600 mod 24) us _ eq_refl W),
    (branch_sgn (fun s => s / 60 mod 60) us _ eq_refl W), (branch_sgn (fun s => s mod 60) us _ eq_refl W).
  rewrite <- Z.mul_assoc, <- Z.mul_add_distr_l. reflexivity.
Qed.

Lemma fields_of_tod : forall h mi s_us, 0 <= h < 24 -> 0 <= mi < 60 -> 0 <= s_us < US_PER_MINUTE ->
  let tod := tod_of h mi s_us in
  0 <= tod < US_PER_DAY /\ hour_of tod = h /\ minute_of tod = mi /\
  seconds_impl (second_of tod) (micro_of tod) = s_us.
Proof.
  intros h mi s Hh Hm Hs. unfold tod_of, hour_of, minute_of, second_of, micro_of, seconds_impl,
    US_PER_DAY, US_PER_HOUR, US_PER_MINUTE, US in *. Z.to_euclidean_division_equations. lia.
Qed.
