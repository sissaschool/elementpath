From Coq Require Import ZArith List Lia.
From EP Require Import C11.Model C11.Zoned.
Import ListNotations.
Open Scope Z_scope.

Lemma instant_with_implicit : forall ctx v, utc (with_implicit ctx v) = instant (imp_of ctx) v.
Proof. intros [z|] [l [t|]]; reflexivity. Qed.

Lemma cmp_values_utc : forall a b, cmp_values a b = (utc a ?= utc b).
Proof.
  intros [la [ta|]] [lb [tb|]]; unfold cmp_values, utc; cbn [tz local]; try reflexivity.
  rewrite !Z.sub_0_r. reflexivity.
Qed.

Lemma day_floor_spec : forall t, day_floor t <= t < day_floor t + US_PER_DAY /\ (day_floor t) mod US_PER_DAY = 0.
Proof.
  intros t. unfold day_floor, US_PER_DAY. split; [|apply Z.mod_mul; lia].
  pose proof (Z.div_mod t 86400000000 ltac:(lia)). pose proof (Z.mod_pos_bound t 86400000000 ltac:(lia)). lia.
Qed.

(* max keeps the later instant and min the earlier one: one order, read in the direction mx *)
Definition dir (mx : bool) (a b : Z) : Prop := if mx then a <= b else b <= a.

Lemma extreme_in : forall mx imp l best, In (extreme mx imp best l) (best :: l).
Proof.
  intros mx imp. induction l as [|x r IH]; intros best; cbn [extreme]; [left; reflexivity|].
  destruct (if mx then _ else _).
  - destruct (IH x) as [H|H]; [right; left|right; right]; exact H.
  - destruct (IH best) as [H|H]; [left|right; right]; exact H.
Qed.
(* the loop invariant: what the running best dominates, and what is still to come, the result dominates *)
Lemma extreme_dominates : forall mx imp l best x, dir mx (instant imp x) (instant imp best) \/ In x l ->
  dir mx (instant imp x) (instant imp (extreme mx imp best l)).
Proof.
  intros mx imp. induction l as [|y r IH]; intros best x H; cbn [extreme].
  - destruct H as [H|[]]. exact H.
  - apply IH. destruct H as [H|[<-|H]]; [left|left|right; exact H].
    all: destruct mx; cbn [dir] in *; destruct (_ <? _) eqn:E; lia.
Qed.
Lemma extreme_opt : forall mx imp l best x, In x (best :: l) ->
  dir mx (instant imp x) (instant imp (extreme mx imp best l)).
Proof.
  intros mx imp l best x [<-|H]; apply extreme_dominates; [left|right; exact H]. destruct mx; cbn [dir]; lia.
Qed.
