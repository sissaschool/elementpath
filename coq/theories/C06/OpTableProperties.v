From Coq Require Import ZArith List Bool.
From EP Require Import C06.OpTable.
Import ListNotations.

(* all_aop and all_aty list every constructor, so a decidable statement over operators and type pairs is settled by
   evaluating it on them *)
Lemma all_aop_complete : forall o, In o all_aop.
Proof. intros []; repeat ((left; reflexivity) || right). Qed.
Lemma all_aty_complete : forall a, In a all_aty.
Proof. intros []; repeat ((left; reflexivity) || right). Qed.
Lemma optable_sweep : forall P : aop -> aty -> aty -> bool,
  forallb (fun o => forallb (fun a => forallb (P o a) all_aty) all_aty) all_aop = true -> forall o a b, P o a b = true.
Proof.
  intros P H o a b. rewrite forallb_forall in H. specialize (H o (all_aop_complete o)).
  rewrite forallb_forall in H. specialize (H a (all_aty_complete a)).
  rewrite forallb_forall in H. exact (H b (all_aty_complete b)).
Qed.

Lemma aty_eqb_eq : forall a b, aty_eqb a b = true -> a = b.
Proof. intros [] [] H; (discriminate H || reflexivity). Qed.
Definition oaty_eqb (x y : option aty) : bool :=
  match x, y with Some a, Some b => aty_eqb a b | None, None => true | _, _ => false end.
Lemma oaty_eqb_eq : forall x y, oaty_eqb x y = true -> x = y.
Proof. intros [a|] [b|] H; try discriminate H; [f_equal; apply aty_eqb_eq; exact H|reflexivity]. Qed.

(* with a non-numeric operand the structured decision is exactly the table B.2, row by row *)
Theorem C06_operator_mapping_rows : forall o a b, (is_num a && is_num b) = false -> optype o a b = row_lookup o a b.
Proof.
  intros o a b H. apply oaty_eqb_eq.
  assert (S : forall o a b, (is_num a && is_num b) || oaty_eqb (optype o a b) (row_lookup o a b) = true)
    by (apply optable_sweep; vm_compute; reflexivity).
  specialize (S o a b). rewrite H in S. exact S.
Qed.
Print Assumptions C06_operator_mapping_rows.
(* numeric operands: every operator is defined, the result type is the promoted type (idiv: xs:integer; div of two
   integers: xs:decimal), and promotion is symmetric *)
Theorem C06_operator_mapping_numeric : forall o a b, is_num a = true -> is_num b = true ->
  exists t, optype o a b = Some t /\ is_num t = true /\ optype o b a = Some t.
Proof.
  intros o a b Ha Hb. unfold optype. unfold numeric_result, is_num in *.
  destruct (nrank a) as [x|]; [|discriminate Ha]. destruct (nrank b) as [y|]; [|discriminate Hb].
  rewrite (Nat.max_comm y x). eexists. repeat split. destruct o, (Nat.max x y) as [|[|[|]]]; reflexivity.
Qed.
Print Assumptions C06_operator_mapping_numeric.
(* + and * are symmetric in the operand types *)
Theorem C06_operator_mapping_symmetry : forall a b, optype OAdd a b = optype OAdd b a /\ optype OMul a b = optype OMul b a.
Proof. intros a b. destruct a, b; split; reflexivity. Qed.
Print Assumptions C06_operator_mapping_symmetry.
(* booleans, strings, QNames, binaries, xs:gYear and xs:duration take part in no arithmetic *)
Theorem C06_operator_mapping_excluded : forall o a b,
  In a [AStr; AUri; ABool; AQName; AGYear; ADur; AHex; AB64] \/ In b [AStr; AUri; ABool; AQName; AGYear; ADur; AHex; AB64] ->
  optype o a b = None.
Proof.
  intros o a b [H|H]; cbn in H.
  - repeat (destruct H as [<-|H]; [destruct o, b; reflexivity|]). destruct H.
  - repeat (destruct H as [<-|H]; [destruct o, a; reflexivity|]). destruct H.
Qed.
Print Assumptions C06_operator_mapping_excluded.
Example C06_optable_nonvacuous :
  optype OSub ADate ADate = Some ADT /\ optype OAdd ADT ADateTime = Some ADateTime /\ optype ODiv AInt AInt = Some ADec /\
  optype OIdiv ADbl AUnt = Some AInt /\ optype OMul AYM AFlt = Some AYM /\ optype OSub ADate ADateTime = None /\
  optype OIdiv ABool AInt = None.
Proof. repeat split; reflexivity. Qed.
