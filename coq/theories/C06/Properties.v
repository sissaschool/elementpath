From Coq Require Import ZArith Bool Lia.
From EP Require Import Gen.C06Kernels C06.Model C06.Proofs.
Open Scope Z_scope.

(* idiv truncates toward zero: all four numeric types, all finite operands (values m*10^e, any exponents) *)
Theorem C06_idiv_truncates : forall a b, nc a = Fin -> nc b = Fin -> nm b <> 0 ->
  idiv a b = int_val (Z.quot (scaled a (scale_e a b)) (scaled b (scale_e a b))).
Proof.
  intros a b Ha Hb Hz. unfold idiv.
  destruct (fin_tests a Ha) as (-> & -> & _), (fin_tests b Hb) as (-> & -> & ->).
  rewrite (proj2 (Z.eqb_neq _ _) Hz). cbn [orb]. f_equal.
  apply (idiv_patch_quot _ _ (is_dec (nk a) && _) (is_dec (nk b) && _)), scaled_nonzero, Hz.
Qed.
Print Assumptions C06_idiv_truncates.

(* mod is the truncated-division remainder (sign of the dividend), of the promoted type *)
Theorem C06_mod_sign_of_dividend : forall v1 a b, nc a = Fin -> nc b = Fin -> nm b <> 0 ->
  res_scaled (mod_ v1 a b) = Some (Z.rem (scaled a (scale_e a b)) (scaled b (scale_e a b))) /\
  (forall v, mod_ v1 a b = Val v -> nk v = promote (nk a) (nk b) /\ (nc v = Fin -> ne v = scale_e a b)).
Proof.
  intros v1 a b Ha Hb Hz. rewrite (mod_finite_eq v1 a b Ha Hb Hz).
  destruct (is_float _ && (_ =? 0) && negative a) eqn:G.
  - split; [cbn; f_equal; lia|]. intros v [= <-]. split; [reflexivity|discriminate].
  - split; [reflexivity|]. intros v [= <-]. auto.
Qed.
Print Assumptions C06_mod_sign_of_dividend.

(* a = (a idiv b) * b + (a mod b), in units of the common scale 10^e *)
Theorem C06_div_mod_identity : forall v1 a b, nc a = Fin -> nc b = Fin -> nm b <> 0 ->
  exists q r, idiv a b = int_val q /\ res_scaled (mod_ v1 a b) = Some r /\
              scaled a (scale_e a b) = q * scaled b (scale_e a b) + r.
Proof.
  intros v1 a b Ha Hb Hz. eexists. eexists. split; [exact (C06_idiv_truncates a b Ha Hb Hz)|].
  split; [exact (proj1 (C06_mod_sign_of_dividend v1 a b Ha Hb Hz))|].
  rewrite Z.mul_comm. apply Z.quot_rem'.
Qed.
Print Assumptions C06_div_mod_identity.

(* the regenerated integer kernels themselves *)
Theorem C06_int_kernels : forall a b, b <> 0 ->
  idiv_patch a b (a / b) false false = Z.quot a b /\ mod_int_kernel a b = Z.rem a b.
Proof. intros a b Hb. split; [exact (idiv_patch_quot a b false false Hb)|exact (mod_int_kernel_rem a b Hb)]. Qed.
Print Assumptions C06_int_kernels.

(* division by zero: FOAR0001 for integer/decimal, +-INF / NaN by sign for float/double (incl. -0.0), in the promoted
   type (value AND result type) *)
Theorem C06_div_by_zero : forall a b, div_zero a b = div_zero_spec a b.
Proof. intros a b. unfold div_zero, div_zero_spec. rewrite div_zero_signs. destruct (nk a), (nk b); reflexivity. Qed.
Print Assumptions C06_div_by_zero.
(* before the repair the code returned a plain Python float (xs:double) where F&O prescribes xs:float: same error /
   same special value always, same type unless the promoted type is xs:float *)
Theorem C06_div_by_zero_old_partial : forall a b,
  res_cls (div_zero_old a b) = res_cls (div_zero_spec a b) /\ res_err (div_zero_old a b) = res_err (div_zero_spec a b) /\
  (promote (nk a) (nk b) <> KFlt -> div_zero_old a b = div_zero_spec a b).
Proof.
  intros a b. unfold div_zero_old, div_zero_spec. rewrite div_zero_signs.
  destruct (nk a), (nk b); cbn [andb promote]; destruct (is_nan a || is_zero a); repeat split; congruence.
Qed.
Print Assumptions C06_div_by_zero_old_partial.
Theorem C06_div_by_zero_old_type_refuted : exists a b, div_zero_old a b <> div_zero_spec a b.
Proof. exists (mk KFlt Fin 1 0), (mk KFlt Fin 0 0). vm_compute. discriminate. Qed.
Print Assumptions C06_div_by_zero_old_type_refuted.

(* fn:round(x) = floor(x + 1/2) for every rational m/d *)
Theorem C06_round : forall m d, 0 < d -> round_md m d = round_spec m d.
Proof. exact round_md_spec. Qed.
Print Assumptions C06_round.
Theorem C06_floor_ceiling : forall m d, 0 < d ->
  (d * floor_md m d <= m < d * (floor_md m d + 1)) /\ (d * (ceil_md m d - 1) < m <= d * ceil_md m d).
Proof. intros m d Hd. unfold floor_md, ceil_md. Z.to_euclidean_division_equations. nia. Qed.
Print Assumptions C06_floor_ceiling.
(* nearest integer, ties to even *)
Theorem C06_round_half_to_even : forall m d, 0 < d ->
  let r := round_half_even_md m d in
  2 * Z.abs (r * d - m) <= d /\ (2 * Z.abs (r * d - m) = d -> Z.even r = true).
Proof.
  intros m d Hd. unfold round_half_even_md.
  pose proof (Z.div_mod m d ltac:(lia)). pose proof (Z.mod_pos_bound m d Hd).
  destruct (2 * (m mod d) <? d) eqn:E1; [nia|].
  destruct (2 * (m mod d) >? d) eqn:E2; [nia|].
  (* a tie: the even one of the two neighbours *)
  destruct (Z.even (m / d)) eqn:E3; (split; [nia|intros _]); [exact E3|rewrite Z.even_add, E3; reflexivity].
Qed.
Print Assumptions C06_round_half_to_even.

Example C06_nonvacuous :
  idiv (mk KInt Fin (-6) 0) (mk KInt Fin 2 0) = int_val (-3) /\
  idiv (mk KInt Fin 7 0) (mk KDec Fin (-25) (-1)) = int_val (-2) /\
  res_scaled (mod_ false (mk KDbl Fin (-65) (-1)) (mk KInt Fin 4 0)) = Some (-25) /\
  round_md (-25) 10 = -2 /\ round_md 25 10 = 3 /\ round_half_even_md 25 10 = 2.
Proof. vm_compute. repeat split; reflexivity. Qed.

(* mod and idiv on NaN / INF / -0.0 operands and zero divisors (XPath 2.0+): the F&O special-value rules: class, error,
   finite value and result type (the promoted type, xs:float NaN included) *)
Theorem C06_mod_special_values : forall a b, wf_num a = true -> wf_num b = true -> special_pair a b = true ->
  res_cls (mod_ false a b) = res_cls (mod_special_spec a b) /\ res_err (mod_ false a b) = res_err (mod_special_spec a b) /\
  res_val (mod_ false a b) = res_val (mod_special_spec a b) /\ res_kind (mod_ false a b) = res_kind (mod_special_spec a b).
Proof.
  intros [ka ca ma ea] [kb cb mb eb] Wa Wb S.
  unfold mod_, mod_special_spec. rewrite promote_float, (orb_comm (is_float (nk (mk kb cb mb eb)))).
  unfold wf_num, special_pair, is_zero, is_inf, is_nan, negative in *. cbn [nk nc nm ne] in *.
  (* the class pairs of the F&O table; a non-finite class makes its operand a float (wf_num) with mantissa 0 *)
  destruct ca, cb; cbn [negb orb andb] in *.
  all: try (apply andb_true_iff in Wa as [-> Wa]; apply Z.eqb_eq in Wa as ->).
  all: try (apply andb_true_iff in Wb as [-> Wb]).
  all: rewrite ?S, ?orb_true_r.
  (* finite operands, zero divisor: NaN or FOAR0001 by the promoted kind *)
  1: destruct (is_float ka || is_float kb); cbn; auto.
  (* what is left depends at most on whether a finite mantissa is 0; -0.0 mod a finite non-zero value is computed *)
  all: try destruct (ma =? 0); try destruct (mb =? 0); cbn; auto.
Qed.
Print Assumptions C06_mod_special_values.
Theorem C06_idiv_special_values : forall a b, wf_num a = true -> wf_num b = true -> special_pair a b = true ->
  match idiv_special_spec a b with Some r => idiv a b = r | None => exists c, idiv a b = Err c end.
Proof.
  intros [ka ca ma ea] [kb cb mb eb] Wa Wb S.
  unfold wf_num, special_pair, idiv, idiv_special_spec, is_zero, is_inf, is_nan in *. cbn [nk nc nm] in *.
  destruct ca, cb; cbn [negb orb] in *; rewrite ?S; eauto; try (destruct (mb =? 0); eauto).
  (* -0.0 idiv a finite non-zero value: the quotient of 0 *)
  apply andb_true_iff in Wa as [_ Wa]. apply Z.eqb_eq in Wa as ->.
  destruct (is_dec ka && _ || _); reflexivity.
Qed.
Print Assumptions C06_idiv_special_values.
