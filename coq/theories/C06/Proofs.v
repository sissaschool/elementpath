(* C06 lemmas: the regenerated integer kernels against Z.quot / Z.rem, fn:round against floor(x + 1/2), and what idiv,
   mod_ and the division-by-zero arm do on finite operands and on the special classes.  Division facts are obtained by
   Z.to_euclidean_division_equations at the step that needs them (no Zify hook: it would reach every importing file). *)
From Coq Require Import ZArith Bool Lia.
From EP Require Import Gen.C06Kernels C06.Model.
Open Scope Z_scope.

Definition py_floordiv (a b : Z) (dec : bool) : Z := if dec then Z.quot a b else a / b.
(* the patch turns a floor quotient into the truncated one: they differ (by 1) exactly when the quotient is negative
   and the division is not exact *)
Lemma idiv_patch_quot : forall a b dec1 dec2, b <> 0 ->
  idiv_patch a b (py_floordiv a b (dec1 || dec2)) dec1 dec2 = Z.quot a b.
Proof.
  intros a b dec1 dec2 Hb. unfold idiv_patch, py_floordiv.
  destruct dec1, dec2; cbn [orb]; rewrite ?orb_true_r; try reflexivity.
  destruct (a / b >=? 0) eqn:E1; [|destruct (a mod b =? 0) eqn:E2]; cbn [orb];
    Z.to_euclidean_division_equations; nia.
Qed.

Lemma mod_int_kernel_rem : forall a b, b <> 0 -> mod_int_kernel a b = Z.rem a b.
Proof.
  intros a b Hb. rewrite (Z.rem_mod a b Hb). unfold mod_int_kernel.
  destruct a; cbn [Z.abs Z.geb Z.compare Z.sgn]; rewrite ?Z.mod_0_l; lia.
Qed.

Lemma div_mod_identity : forall a b, b <> 0 ->
  a = idiv_patch a b (py_floordiv a b false) false false * b + mod_int_kernel a b.
Proof.
  intros a b Hb. pose proof (idiv_patch_quot a b false false Hb) as H. cbn [orb] in H.
  rewrite H, mod_int_kernel_rem, Z.mul_comm by assumption. apply Z.quot_rem'.
Qed.

Lemma mod_sign : forall a b, b <> 0 -> (0 <= a -> 0 <= mod_int_kernel a b) /\ (a <= 0 -> mod_int_kernel a b <= 0)
  /\ Z.abs (mod_int_kernel a b) < Z.abs b.
Proof.
  intros a b Hb. rewrite mod_int_kernel_rem by assumption.
  pose proof (Z.rem_nonneg a b Hb). pose proof (Z.rem_nonpos a b Hb). pose proof (Z.rem_bound_abs a b Hb). lia.
Qed.

Lemma div_unique_bounds : forall n d q, d * q <= n < d * (q + 1) -> n / d = q.
Proof.
  intros n d q H. symmetry. apply (Z.div_unique n d q (n - d * q)); lia.
Qed.
(* round_md m d is the integer nearest to m / d, ties upwards: 2d * R <= 2m + d < 2d * (R + 1) *)
Lemma round_md_spec : forall m d, 0 < d -> round_md m d = round_spec m d.
Proof.
  intros m d Hd. symmetry. apply div_unique_bounds. unfold round_md, quantize_half.
  destruct (m >? 0) eqn:E0, (m <? 0) eqn:E1; try lia.
  - destruct (2 * (Z.abs m mod d) >=? d) eqn:E2; Z.to_euclidean_division_equations; lia.
  - destruct (2 * (Z.abs m mod d) >? d) eqn:E2; Z.to_euclidean_division_equations; lia.
  - replace m with 0 by lia. rewrite Z.mod_0_l, Z.div_0_l by lia. destruct (2 * 0 >? d) eqn:E2; lia.
Qed.

Lemma scaled_nonzero : forall a b, nm b <> 0 -> scaled b (scale_e a b) <> 0.
Proof.
  intros a b H. unfold scaled, scale_e.
  pose proof (Z.pow_pos_nonneg 10 (ne b - Z.min (ne a) (ne b)) ltac:(lia) ltac:(lia)). nia.
Qed.
Lemma fin_tests : forall x, nc x = Fin -> is_inf x = false /\ is_nan x = false /\ is_zero x = (nm x =? 0).
Proof. intros x H. unfold is_inf, is_nan, is_zero. rewrite H. auto. Qed.

(* mod on finite operands, exactly: the truncated-division remainder on the common scale, in the promoted type; a zero
   remainder of a negative float dividend is the negative zero *)
Lemma mod_finite_eq : forall v1 a b, nc a = Fin -> nc b = Fin -> nm b <> 0 ->
  let k := promote (nk a) (nk b) in let e := scale_e a b in let r := Z.rem (scaled a e) (scaled b e) in
  mod_ v1 a b = if is_float k && (r =? 0) && negative a then special k NegZero else Val (mk k Fin r e).
Proof.
  intros v1 a b Ha Hb Hz. unfold mod_.
  destruct (fin_tests a Ha) as (-> & -> & _), (fin_tests b Hb) as (-> & -> & ->).
  rewrite (proj2 (Z.eqb_neq _ _) Hz). cbn [andb orb negb].
  rewrite mod_int_kernel_rem by (apply scaled_nonzero; exact Hz).
  destruct (promote (nk a) (nk b)); reflexivity.
Qed.

(* division by zero: the sign table of the float arm, whatever wraps the class *)
Lemma div_zero_signs : forall (f : cls -> res) a b,
  (if is_nan a then f NaN else if is_zero a then f NaN
   else if negb (negative a) then f (if negative b then NInf else PInf) else f (if negative b then PInf else NInf)) =
  if is_nan a || is_zero a then f NaN else f (if xorb (negative a) (negative b) then NInf else PInf).
Proof. intros f a b. destruct (is_nan a), (is_zero a), (negative a), (negative b); reflexivity. Qed.

(* operands as they can occur: only float / double carry a non-finite class *)
Definition wf_num (x : num) : bool := match nc x with Fin => true | _ => is_float (nk x) && (nm x =? 0) end.
Definition special_pair (a b : num) : bool :=
  negb (match nc a, nc b with Fin, Fin => true | _, _ => false end) || is_zero b.
Definition res_val (r : res) : option (Z * Z) :=
  match r with Val v => match nc v with Fin => Some (nm v, ne v) | _ => None end | Err _ => None end.
Definition res_kind (r : res) : option kind := match r with Val v => Some (nk v) | Err _ => None end.

Lemma promote_float : forall a b, is_float (promote a b) = is_float a || is_float b.
Proof. intros [] []; reflexivity. Qed.
