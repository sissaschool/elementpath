From Coq Require Import ZArith List Lia.
From EP Require Import C17.XmlText.
Import ListNotations.
Open Scope Z_scope.

(* the written form e of one character is read back as that character by one step of the reader, whatever follows.
   A serializer that writes every character in such a form is read back unchanged (read_flat_map); what is left for
   each serializer is its table of escapes. *)
Definition decodes (attr : bool) (e : list Z) (c : Z) : Prop :=
  forall n t, read_cdata attr (S n) (e ++ t) = option_map (cons c) (read_cdata attr n t).
Lemma decodes_nonempty : forall attr e c, decodes attr e c -> e <> [].
Proof. intros attr e c D ->. discriminate (D 1%nat []). Qed.

Lemma read_flat_map : forall attr esc s n, (forall c, In c s -> decodes attr (esc c) c) ->
  (length (flat_map esc s) < n)%nat -> read_cdata attr n (flat_map esc s) = Some s.
Proof.
  intros attr esc. induction s as [|c s IH]; intros n D H; (destruct n as [|n]; [inversion H|]); [reflexivity|].
  assert (E := D c (or_introl eq_refl)). cbn [flat_map] in *. rewrite app_length in H.
  rewrite E, IH; [reflexivity|intros x Hx; apply D; right; exact Hx|].
  (* esc c is not empty, so the fuel that is left covers the other characters *)
  apply decodes_nonempty in E. destruct (esc c); [contradiction|cbn [length] in H; lia].
Qed.

Lemma plain_decodes : forall attr c, c <> 38 -> c <> 60 -> c <> 13 -> (attr = true -> c <> 9 /\ c <> 10 /\ c <> 34) ->
  decodes attr [c] c.
Proof.
  intros attr c H1 H2 H3 H4 n t. cbn [app read_cdata].
  rewrite (proj2 (Z.eqb_neq c 38)), (proj2 (Z.eqb_neq c 60)), (proj2 (Z.eqb_neq c 13)) by assumption.
  destruct attr; [|reflexivity]. destruct H4 as (H4 & H5 & H6); [reflexivity|].
  rewrite (proj2 (Z.eqb_neq c 9)), (proj2 (Z.eqb_neq c 10)), (proj2 (Z.eqb_neq c 34)) by assumption. reflexivity.
Qed.

(* a raw carriage return is the one character of a text node that is not read back *)
Lemma esc_text_decodes : forall cr_ref c, cr_ref = true \/ c <> 13 -> decodes false (esc_text_char cr_ref c) c.
Proof.
  intros cr_ref c H n t. unfold esc_text_char.
  destruct (Z.eqb_spec c 38) as [->|]; [reflexivity|].
  destruct (Z.eqb_spec c 60) as [->|]; [reflexivity|].
  destruct (Z.eqb_spec c 62) as [->|]; [reflexivity|].
  destruct (Z.eqb_spec c 13) as [->|]; [destruct H as [->|]; [reflexivity|contradiction]|].
  apply plain_decodes; auto. discriminate.
Qed.

Lemma esc_attr_decodes : forall pad c, decodes true (esc_attr_char pad c) c.
Proof.
  intros pad c n t. unfold esc_attr_char.
  destruct (Z.eqb_spec c 38) as [->|]; [reflexivity|].
  destruct (Z.eqb_spec c 60) as [->|]; [reflexivity|].
  destruct (Z.eqb_spec c 62) as [->|]; [reflexivity|].
  destruct (Z.eqb_spec c 34) as [->|]; [reflexivity|].
  destruct (Z.eqb_spec c 9) as [->|]; [destruct pad; reflexivity|].
  destruct (Z.eqb_spec c 10) as [->|]; [reflexivity|].
  destruct (Z.eqb_spec c 13) as [->|]; [reflexivity|].
  apply plain_decodes; auto.
Qed.

(* the text round trip holds when the carriage return is written as a reference (lxml) or does not occur *)
Lemma text_rt_gen : forall cr_ref s, cr_ref = true \/ ~ In 13 s -> read_text (esc_text cr_ref s) = Some s.
Proof.
  intros cr_ref s H. apply read_flat_map; [|apply Nat.lt_succ_diag_r]. intros c Hc. apply esc_text_decodes.
  destruct H as [H|H]; [left; exact H|right; intros ->; exact (H Hc)].
Qed.

(* without the reference for the carriage return (xml.etree) the text is read back with line feeds *)
Definition cr_to_lf (c : Z) : Z := if c =? 13 then 10 else c.

(* an attribute value written without the references for tab, line feed and carriage return is read with spaces *)
Lemma attr_unescaped_whitespace : read_attr [97; 9; 98; 10; 99; 13; 10; 100] = Some [97; 32; 98; 32; 99; 32; 100].
Proof. reflexivity. Qed.
