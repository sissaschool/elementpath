(* C17 property theorems on the XML half: the character data written by the serializers behind fn:serialize is read back
   unchanged by an XML parser - the part of "parse-xml(serialize(node)) is deep-equal to the node" that concerns the content
   of text nodes and attribute values, for every string of code points. *)
From Coq Require Import ZArith List.
From EP Require Import C17.XmlText C17.XmlTextProofs.
From EP Require Gen.C17Shape.
Import ListNotations.
Open Scope Z_scope.

(* text nodes, with the carriage return written as a character reference (lxml) *)
Theorem C17_xml_text_roundtrip : forall s, read_text (esc_text true s) = Some s.
Proof. intros s. apply text_rt_gen. left. reflexivity. Qed.
Print Assumptions C17_xml_text_roundtrip.

(* attribute values, with either form of the tab reference (lxml, xml.etree) *)
Theorem C17_xml_attribute_roundtrip : forall pad s, read_attr (esc_attr pad s) = Some s.
Proof. intros pad s. apply read_flat_map; [|apply Nat.lt_succ_diag_r]. intros c _. apply esc_attr_decodes. Qed.
Print Assumptions C17_xml_attribute_roundtrip.

(* text nodes with the carriage return written as is (xml.etree): read back as a line feed - refuted; the round trip holds
   exactly for the strings without a carriage return (the region of the known finding C17-etree-carriage-return-in-text) *)
Theorem C17_xml_text_raw_carriage_return_refuted :
  read_text (esc_text false [97; 13; 98]) = Some [97; 10; 98] /\
  (forall s, ~ In 13 s -> read_text (esc_text false s) = Some s).
Proof. split; [reflexivity|]. intros s N. apply text_rt_gen. right. exact N. Qed.
Print Assumptions C17_xml_text_raw_carriage_return_refuted.

(* why the references are needed in attribute values: literal tabs and line ends are normalised to spaces *)
Example C17_xml_attribute_normalisation :
  read_attr [97; 9; 98; 10; 99; 13; 10; 100] = Some [97; 32; 98; 32; 99; 32; 100] /\
  read_attr (esc_attr false [97; 9; 98; 10; 99; 13; 10; 100]) = Some [97; 9; 98; 10; 99; 13; 10; 100] /\
  read_text [38; 35; 120; 49; 70; 54; 48; 48; 59; 38; 97; 112; 111; 115; 59] = Some [128512; 39] /\
  read_text [38; 35; 48; 59] = None /\ read_text [97; 60] = None.
Proof. split; [exact attr_unescaped_whitespace|]. repeat split. Qed.

(* the statements of /repo behind the serialization checks (serialize_to_xml drops the tail on a copy, deep_equal compares the
   element and text children exactly, escape_json_string scans escaped strings) are present in the source as read on this run *)
Theorem C17_source_shape : Gen.C17Shape.shape_ok = true.
Proof. reflexivity. Qed.
Print Assumptions C17_source_shape.
