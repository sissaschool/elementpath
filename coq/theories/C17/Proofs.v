(* The JSON round trip. At each layer one lemma says what the parser reads from what the serializer wrote, whatever
   follows it: one escaped character (parse_body_step), an integer (parse_number_int), a comma-separated sequence
   (seq_ok), a value (value_roundtrip). *)
From Coq Require Import ZArith List Bool Lia.
From EP Require Import C10.Model C10.Proofs C17.Model.
Import ListNotations.
Open Scope Z_scope.

(* code points that a JSON text carries: Unicode scalar values (no surrogates) *)
Definition scalar (c : Z) : Prop := 0 <= c <= 1114111 /\ ~ (55296 <= c <= 57343).

Lemma flat_map_length_le : forall (A B : Type) (f : A -> list B) l, (forall x, f x <> []) ->
  (length l <= length (flat_map f l))%nat.
Proof.
  intros A B f l H. induction l as [|x l IH]; cbn [flat_map length]; [lia|].
  rewrite app_length. specialize (H x). destruct (f x); [contradiction|cbn [length]; lia].
Qed.

Lemma hex4_val_hex4 : forall n, 0 <= n < 65536 ->
  hex4_val (hexd (n / 4096)) (hexd ((n / 256) mod 16)) (hexd ((n / 16) mod 16)) (hexd (n mod 16)) = Some n.
Proof.
  intros n H. unfold hex4_val. rewrite !hexv_hexd by (Z.to_euclidean_division_equations; lia). f_equal.
  Z.to_euclidean_division_equations. lia.
Qed.

Lemma parse_body_step : forall c n t, scalar c ->
  parse_string_body (S n) (esc_char c ++ t) =
  match parse_string_body n t with Some (u, rest) => Some (c :: u, rest) | None => None end.
Proof.
  intros c n t [[H0 _] Hsur]. unfold esc_char.
  destruct (Z.eqb_spec c 34) as [->|N34]; [reflexivity|].
  destruct (Z.eqb_spec c 92) as [->|N92]; [reflexivity|].
  destruct (c <? 32) eqn:E32.
  - unfold hex4. cbn [List.app parse_string_body Z.eqb Pos.eqb]. rewrite hex4_val_hex4 by lia.
    replace ((55296 <=? c) && (c <=? 56319)) with false by lia. reflexivity.
  - cbn [List.app parse_string_body]. rewrite (proj2 (Z.eqb_neq c 34) N34), (proj2 (Z.eqb_neq c 92) N92), E32. reflexivity.
Qed.
Lemma esc_char_nonempty : forall c, esc_char c <> [].
Proof. intros c. unfold esc_char. destruct (c =? 34), (c =? 92), (c <? 32); discriminate. Qed.

Lemma parse_body_esc : forall s n rest, Forall scalar s -> (length s < n)%nat ->
  parse_string_body n (flat_map esc_char s ++ 34 :: rest) = Some (s, rest).
Proof.
  intros s n rest H. revert n. induction H as [|c s Hc _ IH]; intros n Hn; (destruct n as [|n]; [inversion Hn|]).
  - reflexivity.
  - cbn [flat_map length] in *. rewrite <- app_assoc, parse_body_step, IH by (exact Hc || lia). reflexivity.
Qed.

Lemma string_roundtrip : forall s rest, Forall scalar s -> parse_string (print_string s ++ rest) = Some (s, rest).
Proof.
  intros s rest H. unfold print_string. rewrite <- app_comm_cons, <- app_assoc. apply parse_body_esc; [exact H|].
  assert (L := flat_map_length_le _ _ esc_char s esc_char_nonempty). rewrite app_length. lia.
Qed.

Definition no_num_char (rest : str) : Prop :=
  match rest with [] => True | c :: _ => is_digit c = false /\ c <> 46 /\ c <> 101 /\ c <> 69 end.

(* "rest does not go on with a digit" is said of hd 0 rest: 0 is no digit, so the empty rest needs no case of its own *)
Lemma no_num_char_hd : forall rest, no_num_char rest -> is_digit (hd 0 rest) = false /\ hd 0 rest <> 46.
Proof. intros [|c r] H; [split; [reflexivity|discriminate]|split; apply H]. Qed.
Lemma take_digits_app : forall d rest, forallb is_digit d = true -> is_digit (hd 0 rest) = false ->
  take_digits (d ++ rest) = (d, rest).
Proof.
  induction d as [|c d IH]; intros rest D R.
  - destruct rest as [|c r]; [reflexivity|]. cbn in *. rewrite R. reflexivity.
  - apply andb_prop in D as [Dc D]. cbn [List.app take_digits]. rewrite Dc, IH by assumption. reflexivity.
Qed.

Lemma print_int_shape : forall z, exists d,
  print_int z = (if z <? 0 then 45 :: d else d) /\ digits1 d = true /\ uint_val d = Some (Z.abs z).
Proof.
  intros z. unfold print_int, uint_val. assert (N := to_int_nonnil z). assert (E := DecimalZ.of_to z).
  destruct (Z.to_int z) as [u|u] eqn:T; exists (uint_chars u); rewrite digits1_uint, chars_uint_chars by exact N.
  all: cbn [Z.of_int option_map] in E |- *; assert (0 <= Z.of_uint u) by (unfold Z.of_uint; lia).
  - replace (z <? 0) with false by lia. repeat split. f_equal. lia.
  - (* E and the bound give z <= 0 only; T rules out zero, which Z.to_int writes as Pos *)
    destruct z; try discriminate T. repeat split. f_equal. lia.
Qed.
Lemma digits1_inv : forall d, digits1 d = true -> exists c r, d = c :: r /\ is_digit c = true /\ forallb is_digit d = true.
Proof. intros [|c r] D; [discriminate|]. exists c, r. cbn in D |- *. apply andb_prop in D as [-> ->]. auto. Qed.

Lemma parse_number_int : forall m t, is_digit (hd 0 t) = false -> hd 0 t <> 46 ->
  parse_number (print_int m ++ t) =
  match num_exp t with Some (ex, rest) => Some (JNum m ex, rest) | None => None end.
Proof.
  intros m t Td Tp. destruct (print_int_shape m) as (d & -> & D & V).
  destruct (digits1_inv d D) as (c & r & -> & Dc & Dd).
  assert (S : forall b : bool, num_sign ((if b then 45 :: c :: r else c :: r) ++ t) = (b, (c :: r) ++ t)).
  { intros [|]; [reflexivity|]. cbn. replace (c =? 45) with false by (unfold is_digit in Dc; lia). reflexivity. }
  unfold parse_number. rewrite S, take_digits_app by assumption.
  assert (F : num_frac t = Some ([], t)).
  { destruct t as [|x t]; [reflexivity|]. cbn in Tp |- *. replace (x =? 46) with false by lia. reflexivity. }
  rewrite F, app_nil_r, V. destruct (num_exp t) as [[ex rest]|]; [|reflexivity].
  f_equal. f_equal. cbn [length]. f_equal; destruct (m <? 0) eqn:E; lia.
Qed.

Lemma num_exp_print : forall e rest, no_num_char rest ->
  num_exp ((if e =? 0 then [] else 101 :: print_int e) ++ rest) = Some (e, rest).
Proof.
  intros e rest Hr. destruct (Z.eqb_spec e 0) as [->|Ne].
  - destruct rest as [|c r]; [reflexivity|]. destruct Hr as (_ & _ & H1 & H2). cbn.
    replace ((c =? 101) || (c =? 69)) with false by lia. reflexivity.
  - destruct (print_int_shape e) as (d & -> & D & V). destruct (digits1_inv d D) as (c & r & -> & Dc & Dd).
    assert (R := proj1 (no_num_char_hd rest Hr)).
    assert (T := take_digits_app (c :: r) rest Dd R). cbn [List.app] in T. unfold is_digit in Dc.
    destruct (e <? 0) eqn:S; unfold num_exp; cbn [List.app Z.eqb Pos.eqb orb].
    + rewrite T, V. f_equal. f_equal. lia.
    + replace (c =? 45) with false by lia. replace (c =? 43) with false by lia.
      rewrite T, V. f_equal. f_equal. lia.
Qed.

Lemma number_roundtrip : forall m e rest, no_num_char rest -> parse_number (print_num m e ++ rest) = Some (JNum m e, rest).
Proof.
  intros m e rest Hr. unfold print_num. rewrite <- app_assoc.
  set (t := (if e =? 0 then [] else 101 :: print_int e) ++ rest).
  assert (H : is_digit (hd 0 t) = false /\ hd 0 t <> 46).
  { unfold t. destruct (e =? 0); [apply no_num_char_hd, Hr|split; [reflexivity|discriminate]]. }
  rewrite parse_number_int by apply H. unfold t. rewrite num_exp_print by exact Hr. reflexivity.
Qed.

Fixpoint height (v : json) : nat :=
  match v with
  | JArr l => S (fold_right (fun x n => Nat.max (height x) n) O l)
  | JObj l => S (fold_right (fun p n => Nat.max (height (snd p)) n) O l)
  | _ => 1
  end.
Fixpoint wfj (v : json) : Prop :=
  match v with
  | JStr s => Forall scalar s
  | JArr l => (fix all (l : list json) : Prop := match l with [] => True | x :: r => wfj x /\ all r end) l
  | JObj l => (fix all (l : list (str * json)) : Prop := match l with [] => True | (k, x) :: r => Forall scalar k /\ wfj x /\ all r end) l
  | _ => True
  end.
(* what may follow a value inside a text: nothing, or a separator / closing bracket *)
Definition sep (rest : str) : Prop := match rest with [] => True | c :: _ => c = 44 \/ c = 93 \/ c = 125 end.
Lemma sep_no_num : forall rest, sep rest -> no_num_char rest.
Proof. intros [|c r]; auto. intros H. destruct H as [H|[H|H]]; subst c; repeat split; congruence. Qed.

Lemma fold_max_in : forall (A : Type) (h : A -> nat) l y, In y l -> (h y <= fold_right (fun x n => Nat.max (h x) n) O l)%nat.
Proof.
  induction l as [|z r IH]; intros y H; [destruct H|]. destruct H as [->|H]; cbn [fold_right]; [lia|]. specialize (IH y H). lia.
Qed.
Lemma wfj_arr_in : forall l x, wfj (JArr l) -> In x l -> wfj x.
Proof. induction l as [|y r IH]; intros x W H; [destruct H|]. destruct H as [->|H]; [apply W|]. apply IH; [apply W|exact H]. Qed.
Lemma wfj_obj_in : forall l p, wfj (JObj l) -> In p l -> Forall scalar (fst p) /\ wfj (snd p).
Proof.
  induction l as [|[k y] r IH]; intros p W H; [destruct H|]. destruct H as [<-|H]; [split; apply W|]. apply IH; [apply W|exact H].
Qed.

(* the text s is not empty and its first character satisfies P: what decides the branch a parser takes. A hypothesis
   "starts P s" leaves s as it is written, where an equation s = c :: r would have to be rewritten and folded back. *)
Definition starts (P : Z -> Prop) (s : str) : Prop := match s with c :: _ => P c | [] => False end.
Lemma starts_app : forall P s t, starts P s -> starts P (s ++ t).
Proof. intros P [|c s] t H; [contradiction|exact H]. Qed.
Lemma starts_impl : forall (P Q : Z -> Prop) s, (forall c, P c -> Q c) -> starts P s -> starts Q s.
Proof. intros P Q [|c s] I H; [contradiction|exact (I c H)]. Qed.
Lemma skip_ws_head : forall s, starts (fun c => is_ws c = false) s -> skip_ws s = s.
Proof. intros [|c r] H; [contradiction|]. cbn in *. rewrite H. reflexivity. Qed.

Definition num_start (c : Z) : Prop := c = 45 \/ is_digit c = true.
(* the first character of an array element or object member: it is kept by skip_ws and closes nothing *)
Definition item_start (c : Z) : Prop := is_ws c = false /\ c <> 93 /\ c <> 125.

Lemma print_int_starts : forall z, starts num_start (print_int z).
Proof.
  intros z. destruct (print_int_shape z) as (d & -> & D & _). destruct (digits1_inv d D) as (c & r & -> & Dc & _).
  destruct (z <? 0); [left; reflexivity|right; exact Dc].
Qed.
Lemma print_starts : forall v, starts item_start (print v).
Proof.
  intros [|[|]|m e|s|l|l]; try (repeat split; (reflexivity || discriminate)).
  apply starts_app, (starts_impl num_start); [|apply print_int_starts].
  intros c [->|H]; unfold item_start, is_ws, is_digit in *; lia.
Qed.

Definition print_seq {A : Type} (pr : A -> str) (l : list A) : str :=
  match l with [] => [] | x :: r => pr x ++ flat_map (fun y => 44 :: pr y) r end.
Definition print_member (p : str * json) : str := print_string (fst p) ++ 58 :: print (snd p).
Lemma print_arr : forall l, print (JArr l) = 91 :: print_seq print l ++ [93].
Proof. intros [|x r]; reflexivity. Qed.
Lemma print_obj : forall l, print (JObj l) = 123 :: print_seq print_member l ++ [125].
Proof.
  intros [|[k x] r]; [reflexivity|]. cbn [print print_seq]. unfold print_member at 1.
  f_equal. f_equal. rewrite <- app_assoc. reflexivity.
Qed.

(* comma-separated items up to a closing bracket. A loop is known by what one round does on a printed item that a comma
   or the bracket follows; parse_elems and parse_members are the two instances, so the induction over the items is done once *)
Lemma seq_ok : forall (A : Type) (go : nat -> str -> option (list A * str)) (pr : A -> str) close r x k rest,
  (forall n y t, In y (x :: r) ->
     go (S n) (pr y ++ 44 :: t) = match go n t with Some (l, rest) => Some (y :: l, rest) | None => None end) ->
  (forall n y t, In y (x :: r) -> go (S n) (pr y ++ close :: t) = Some ([y], t)) ->
  (length r < k)%nat -> go k (print_seq pr (x :: r) ++ close :: rest) = Some (x :: r, rest).
Proof.
  intros A go pr close. induction r as [|y r IH]; intros x k rest Hcomma Hclose Hk; (destruct k as [|k]; [inversion Hk|]).
  - cbn [print_seq flat_map]. rewrite app_nil_r. apply Hclose. left. reflexivity.
  - change (print_seq pr (x :: y :: r)) with (pr x ++ 44 :: print_seq pr (y :: r)).
    rewrite <- app_assoc, <- app_comm_cons, Hcomma by (left; reflexivity).
    rewrite IH; [reflexivity| | |cbn [length] in Hk; lia].
    + intros n z t Hz. apply Hcomma. right. exact Hz.
    + intros n z t Hz. apply Hclose. right. exact Hz.
Qed.
(* the fuel that parse_value gives to parse_elems / parse_members: every item but the first brings its comma *)
Lemma seq_fuel : forall (A : Type) (pr : A -> str) x r t, (length r < S (length (print_seq pr (x :: r) ++ t)))%nat.
Proof.
  intros A pr x r t. cbn [print_seq]. rewrite !app_length.
  assert (L := flat_map_length_le _ _ (fun y => 44 :: pr y) r ltac:(discriminate)). lia.
Qed.

Lemma elems_ok : forall pv r x k rest, (forall y tail, In y (x :: r) -> sep tail -> pv (print y ++ tail) = Some (y, tail)) ->
  (length r < k)%nat -> parse_elems pv k (print_seq print (x :: r) ++ 93 :: rest) = Some (x :: r, rest).
Proof.
  (* in either round what follows the item, a comma or the bracket, is a separator *)
  intros pv r x k rest H. apply seq_ok; intros n y t Hy; cbn [parse_elems]; rewrite (H y _ Hy) by (cbn; auto); reflexivity.
Qed.
Lemma members_round : forall pv n q d t, Forall scalar (fst q) -> pv (print (snd q) ++ d :: t) = Some (snd q, d :: t) ->
  is_ws d = false -> parse_members pv (S n) (print_member q ++ d :: t) =
  if d =? 44 then match parse_members pv n t with Some (l, rest) => Some (q :: l, rest) | None => None end
  else if d =? 125 then Some ([q], t) else None.
Proof.
  intros pv n [key v] d t K V W. unfold print_member. cbn [parse_members fst snd] in *. rewrite <- app_assoc.
  rewrite skip_ws_head, string_roundtrip by (reflexivity || exact K). rewrite <- app_comm_cons, skip_ws_head by reflexivity.
  rewrite V, skip_ws_head by exact W. reflexivity.
Qed.
Lemma members_ok : forall pv r x k rest,
  (forall q, In q (x :: r) -> Forall scalar (fst q) /\ forall tail, sep tail -> pv (print (snd q) ++ tail) = Some (snd q, tail)) ->
  (length r < k)%nat -> parse_members pv k (print_seq print_member (x :: r) ++ 125 :: rest) = Some (x :: r, rest).
Proof.
  intros pv r x k rest H. apply seq_ok; intros n q t Hq; destruct (H q Hq) as [K V].
  all: rewrite members_round; [reflexivity|exact K|apply V; cbn; auto|reflexivity].
Qed.

Lemma parse_value_number : forall fuel s, starts num_start s -> parse_value (S fuel) s = parse_number s.
Proof.
  intros fuel [|c r] H; [contradiction|]. destruct H as [->|H]; [reflexivity|]. cbn [parse_value].
  assert (T : forall k, k < 48 \/ 57 < k -> (c =? k) = false) by (unfold is_digit in H; lia).
  rewrite skip_ws_head by (unfold starts, is_ws; rewrite !T by lia; reflexivity). rewrite !T by lia. reflexivity.
Qed.
Lemma parse_value_str : forall fuel s, parse_value (S fuel) (34 :: s) =
  match parse_string (34 :: s) with Some (t, rest) => Some (JStr t, rest) | None => None end.
Proof. reflexivity. Qed.
Lemma parse_value_arr : forall fuel s, starts item_start s -> parse_value (S fuel) (91 :: s) =
  match parse_elems (parse_value fuel) (S (length s)) s with Some (l, rest) => Some (JArr l, rest) | None => None end.
Proof.
  intros fuel [|c r] H; [contradiction|]. destruct H as (W & N & _).
  cbn [parse_value]. rewrite (skip_ws_head (91 :: _)) by reflexivity.
  rewrite skip_ws_head, (proj2 (Z.eqb_neq c 93) N) by exact W. reflexivity.
Qed.
Lemma parse_value_obj : forall fuel s, starts item_start s -> parse_value (S fuel) (123 :: s) =
  match parse_members (parse_value fuel) (S (length s)) s with Some (l, rest) => Some (JObj l, rest) | None => None end.
Proof.
  intros fuel [|c r] H; [contradiction|]. destruct H as (W & _ & N).
  cbn [parse_value]. rewrite (skip_ws_head (123 :: _)) by reflexivity.
  rewrite skip_ws_head, (proj2 (Z.eqb_neq c 125) N) by exact W. reflexivity.
Qed.

(* only a number looks at what follows it *)
Theorem value_roundtrip : forall fuel v rest, (height v < fuel)%nat -> wfj v -> no_num_char rest ->
  parse_value fuel (print v ++ rest) = Some (v, rest).
Proof.
  induction fuel as [|fuel IH]; intros v rest Hh W Hs; [lia|].
  destruct v as [|[|]|m e|s|l|l]; try reflexivity.
  - cbn [print]. rewrite parse_value_number by (unfold print_num; rewrite <- app_assoc; apply starts_app, print_int_starts).
    apply number_roundtrip, Hs.
  - cbn [print]. assert (R := string_roundtrip s rest W). unfold print_string in *. cbn [List.app] in *.
    rewrite parse_value_str, R. reflexivity.
  - rewrite print_arr. destruct l as [|x r]; [reflexivity|]. rewrite <- app_comm_cons, <- app_assoc. cbn [List.app].
    rewrite parse_value_arr by apply starts_app, starts_app, print_starts.
    rewrite elems_ok; [reflexivity| |apply seq_fuel]. intros y tail Hy Ht.
    apply IH; [|exact (wfj_arr_in _ y W Hy)|apply sep_no_num, Ht].
    eapply Nat.le_lt_trans; [exact (fold_max_in _ height _ y Hy)|apply Nat.succ_lt_mono, Hh].
  - rewrite print_obj. destruct l as [|p r]; [reflexivity|]. rewrite <- app_comm_cons, <- app_assoc. cbn [List.app].
    rewrite parse_value_obj by apply starts_app, (print_starts (JStr (fst p))).
    rewrite members_ok; [reflexivity| |apply seq_fuel]. intros q Hq. destruct (wfj_obj_in _ q W Hq) as [K Wq].
    split; [exact K|]. intros tail Ht. apply IH; [|exact Wq|apply sep_no_num, Ht].
    eapply Nat.le_lt_trans; [exact (fold_max_in _ (fun p => height (snd p)) _ q Hq)|apply Nat.succ_lt_mono, Hh].
Qed.

(* the fuel that parse gives is enough: a value is no higher than its text is long *)
Lemma fold_max_flat_map : forall (A : Type) (h : A -> nat) (f : A -> str) l, (forall x, In x l -> (h x <= length (f x))%nat) ->
  (fold_right (fun x n => Nat.max (h x) n) O l <= length (flat_map f l))%nat.
Proof.
  induction l as [|x r IH]; intros H; cbn [fold_right flat_map]; [apply Nat.le_0_l|]. rewrite app_length.
  assert (Hx := H x (or_introl eq_refl)). assert (Hr := IH (fun y Hy => H y (or_intror Hy))). lia.
Qed.
Lemma print_seq_length : forall (A : Type) (pr : A -> str) l,
  (length (flat_map (fun y => 44%Z :: pr y) l) <= S (length (print_seq pr l)))%nat.
Proof. intros A pr [|x r]; cbn [flat_map print_seq length]; [lia|]. rewrite !app_length. cbn [length]. lia. Qed.

Lemma print_nonempty : forall v, (1 <= length (print v))%nat.
Proof. intros v. assert (H := print_starts v). destruct (print v); [contradiction|cbn; lia]. Qed.

Lemma height_le_length : forall v, (height v <= length (print v))%nat.
Proof.
  (* json is nested through list, and induction v gives no hypothesis for the items: the induction is on a bound of the height *)
  assert (G : forall n v, (height v <= n)%nat -> (height v <= length (print v))%nat).
  { induction n as [|n IH]; intros v H; [destruct v; inversion H|].
    destruct v as [|b|m e|s|l|l]; try apply print_nonempty; cbn [height] in *; apply le_S_n in H.
    (* the closing bracket stands for the comma that the first item does not have *)
    - rewrite print_arr. cbn [length]. rewrite app_length, Nat.add_1_r.
      apply le_n_S, Nat.le_trans with (2 := print_seq_length _ print l), fold_max_flat_map.
      intros x Hx. apply le_S, IH. exact (Nat.le_trans _ _ _ (fold_max_in _ height _ x Hx) H).
    - rewrite print_obj. cbn [length]. rewrite app_length, Nat.add_1_r.
      apply le_n_S, Nat.le_trans with (2 := print_seq_length _ print_member l), fold_max_flat_map.
      intros p Hp. unfold print_member. cbn [length]. rewrite app_length. cbn [length].
      assert (Hq := IH (snd p) (Nat.le_trans _ _ _ (fold_max_in _ (fun p => height (snd p)) _ p Hp) H)). lia. }
  intros v. exact (G _ v (le_n _)).
Qed.
