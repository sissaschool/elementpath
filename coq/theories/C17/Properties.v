From Coq Require Import ZArith List Lia.
From EP Require Import C17.Model C17.Proofs.
Import ListNotations.
Open Scope Z_scope.

(* the JSON codec used as the independent parser / serializer: parsing the serialization of any JSON value (any
   nesting, any strings of Unicode scalar values - quotes, backslashes, control and astral characters -, any numbers
   m * 10^e, duplicate keys kept) gives back the value *)
Theorem C17_json_roundtrip : forall v, wfj v -> parse (print v) = Some v.
Proof.
  intros v W. unfold parse.
  assert (H := value_roundtrip (S (length (print v))) v [] (le_n_S _ _ (height_le_length v)) W I).
  rewrite app_nil_r in H. rewrite H. reflexivity.
Qed.
Print Assumptions C17_json_roundtrip.

(* inside any context (followed by a separator or a closing bracket), with enough fuel *)
Theorem C17_json_value_roundtrip : forall fuel v rest, (height v < fuel)%nat -> wfj v -> sep rest ->
  parse_value fuel (print v ++ rest) = Some (v, rest).
Proof. intros fuel v rest Hh W Hs. apply value_roundtrip; [exact Hh|exact W|apply sep_no_num, Hs]. Qed.
Print Assumptions C17_json_value_roundtrip.

(* strings: escaping then unescaping is the identity on every string of scalar values *)
Theorem C17_string_escape_roundtrip : forall s rest, Forall scalar s -> parse_string (print_string s ++ rest) = Some (s, rest).
Proof. exact string_roundtrip. Qed.
Print Assumptions C17_string_escape_roundtrip.

(* numbers: every m * 10^e written as <m>e<e> reads back as (m, e) *)
Theorem C17_number_roundtrip : forall m e rest, no_num_char rest -> parse_number (print_num m e ++ rest) = Some (JNum m e, rest).
Proof. exact number_roundtrip. Qed.
Print Assumptions C17_number_roundtrip.

Example C17_nonvacuous :
  let v := JObj [([97], JArr [JNum 1 0; JNum (-25) (-1); JStr [120; 34; 10; 128512; 92]; JNull; JBool true]); ([97], JObj [])] in
  wfj v /\ parse (print v) = Some v /\
  (* "😀" (a surrogate pair escape) and 1.5e+300 *)
  parse [91; 32; 49; 46; 53; 101; 43; 51; 48; 48; 32; 44; 34; 92; 117; 100; 56; 51; 100; 92; 117; 100; 101; 48; 48; 34; 93; 32]
    = Some (JArr [JNum 15 299; JStr [128512]]) /\
  parse [91; 49; 44; 93] = None /\ parse [34; 10; 34] = None.
Proof.
  split.
  - repeat constructor; lia.
  - vm_compute. repeat split.
Qed.
