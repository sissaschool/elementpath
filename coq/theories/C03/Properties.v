(* C03: the theorems on the parser instance as a state machine (Model.v): the finally clause resets the cursor,
   a parse does not see the history of the instance, the Pratt core and the comment loop terminate, the
   parse_arguments flag is restored. *)
From Coq Require Import List Bool Lia.
From EP Require Import Common.Pratt C03.Model C03.Proofs Gen.C03Shape.
Import ListNotations.

(* the source has the structure the model mirrors: the finally clause of Parser.parse covers the first advance()
   and expression(), resets the four cursor attributes, and every "parse_arguments = False" is restored in a finally *)
Theorem C03_source_shape : shape_ok = true.
Proof. reflexivity. Qed.
Print Assumptions C03_source_shape.

(* after ANY parse (success, syntax error at any point, whatever state the exception left behind) the cursor is
   the fresh one *)
Theorem C03_parse_resets : forall op lbp rbpL nudR conflict st (j : job op), pa st = true ->
  cursor (snd (parse op lbp rbpL nudR conflict st j)) = cursor fresh.
Proof. exact parse_resets. Qed.
Print Assumptions C03_parse_resets.

(* after any history of parses on one instance a source parses exactly as on a fresh instance *)
Theorem C03_history_independent : forall op lbp rbpL nudR conflict (js : list (job op)) (j : job op),
  fst (parse op lbp rbpL nudR conflict (parse_all op lbp rbpL nudR conflict fresh js) j)
  = fst (parse op lbp rbpL nudR conflict fresh j).
Proof.
  intros. apply parse_cursor. exact (parse_all_good _ _ _ _ _ js fresh eq_refl).
Qed.
Print Assumptions C03_history_independent.

(* the parser core never hangs: no fuel exhaustion, for every token sequence and every table *)
Theorem C03_parse_total : forall op lbp rbpL nudR conflict st (j : job op),
  fst (parse op lbp rbpL nudR conflict st j) <> ModelOutOfFuel.
Proof.
  intros. rewrite parse_body. unfold body. cbn [next_end fst].
  pose proof (expr_total op lbp rbpL nudR conflict (toks j)) as Ht.
  destruct (runp (flags j) _) as (ok, flag').
  destruct (next_end st); [discriminate|].
  destruct (expr _ _ _ _ _ _ _ _) as [[t [|x r]]| |]; try destruct (ok && _); cbn; congruence.
Qed.
Print Assumptions C03_parse_total.
Theorem C03_expression_total : forall op lbp rbpL nudR conflict (ts : list (tok op)),
  expr op lbp rbpL nudR conflict (2 * length ts + 2) 0 ts <> OutOfFuel.
Proof. exact expr_total. Qed.
Print Assumptions C03_expression_total.

(* parse_arguments is true again after any program of steps, whatever fails inside a '=>' operand ... *)
Theorem C03_flag_restored : forall p, snd (runp p true) = true.
Proof. exact runp_keeps_true. Qed.
Print Assumptions C03_flag_restored.
(* ... which was false of the code before the fix (fixed: parse('1 => fn:') then parse('count((1,2))')) *)
Theorem C03_flag_without_finally_refuted : exists p, snd (runp_nofinally p true) = false.
Proof. exists (Arrow (Step false)). reflexivity. Qed.
Print Assumptions C03_flag_without_finally_refuted.

(* nested comments: a balanced body followed by ':)' is skipped exactly, at any depth; an unterminated comment is
   an error; skipping consumes tokens (no hang) *)
Theorem C03_comment_loop : forall w rest level, balanced w ->
  skip_comment 0 (w ++ CClose :: rest) = Some rest /\ skip_comment level w = None /\
  (forall ts r, skip_comment level ts = Some r -> length r < length ts).
Proof.
  intros w rest level H. split; [|split].
  - rewrite (skip_balanced w H). reflexivity.
  - rewrite <- (app_nil_r w). rewrite (skip_balanced w H). reflexivity.
  - clear. intros ts. revert level.
    induction ts as [|[| |] ts IH]; intros level r H; cbn in *; try discriminate.
    + apply IH in H. lia.
    + destruct level; [injection H as <-; lia|apply IH in H; lia].
    + apply IH in H. lia.
Qed.
Print Assumptions C03_comment_loop.

Example C03_nonvacuous :
  balanced [COther; COpen; COther; COpen; COpen; CClose; CClose; CClose; COther] /\
  skip_comment 0 [COther; COpen; COpen; COpen; CClose; CClose; CClose; CClose; COther] = Some [COther] /\
  pa fresh = true.
Proof.
  split; [|split; reflexivity].
  apply bal_other. apply (bal_nest [COther; COpen; COpen; CClose; CClose] [COther]).
  - apply bal_other. apply (bal_nest [COpen; CClose] []); [|constructor].
    apply (bal_nest [] []); constructor.
  - repeat constructor.
Qed.
