From Coq Require Import List.
From EP Require Import Common.Pratt C03.Model.

Lemma runp_keeps_true : forall p, snd (runp p true) = true.
Proof.
  induction p as [ok|p IHp q IHq|inner IH]; cbn [runp].
  - reflexivity.
  - destruct (runp p true) as ([|], f1); cbn [snd] in IHp; subst f1; auto.
  - destruct (runp inner false). reflexivity.
Qed.

Section Parse.
Variable op : Type.
Variable lbp rbpL : op -> nat.
Variable nudR : op -> option nat.
Variable conflict : op -> option op -> bool.
Notation parse := (parse op lbp rbpL nudR conflict).
Notation body := (body op lbp rbpL nudR conflict).

Definition good (s : pstate) : Prop := cursor s = cursor fresh.

Lemma parse_body : forall st j, parse st j = (fst (body st j), reset (snd (body st j))).
Proof. intros st j. unfold parse. destruct (body st j). reflexivity. Qed.

Lemma body_pa : forall st j, pa st = true -> pa (snd (body st j)) = true.
Proof.
  intros st j Hpa. unfold body. cbn [next_end pa]. rewrite Hpa.
  pose proof (runp_keeps_true (flags j)) as Hf. destruct (runp (flags j) true) as (ok, flag'). cbn [snd] in Hf.
  destruct (next_end st); [reflexivity|].
  destruct (expr _ _ _ _ _ _ _ _) as [[t [|x r]]| |]; destruct ok; auto.
Qed.

Lemma parse_resets : forall st j, pa st = true -> good (snd (parse st j)).
Proof.
  intros st j Hpa. rewrite parse_body. unfold good, cursor. cbn. rewrite (body_pa st j Hpa). reflexivity.
Qed.

Lemma parse_all_good : forall js st, good st -> good (parse_all op lbp rbpL nudR conflict st js).
Proof.
  induction js as [|j js IH]; intros st H; auto.
  apply IH, parse_resets. injection H. auto.
Qed.

Lemma parse_cursor : forall s1 s2 j, cursor s1 = cursor s2 -> fst (parse s1 j) = fst (parse s2 j).
Proof.
  intros s1 s2 j H. injection H as H1 _ _ _ H5. rewrite !parse_body. unfold body. cbn [next_end pa fst].
  rewrite H1, H5. destruct (runp (flags j) (pa s2)) as (ok, flag').
  destruct (next_end s2); [reflexivity|].
  destruct (expr _ _ _ _ _ _ _ _) as [[t [|x r]]| |]; reflexivity.
Qed.
End Parse.

Lemma skip_balanced : forall w, balanced w -> forall level rest,
  skip_comment level (w ++ rest) = skip_comment level rest.
Proof.
  induction 1 as [|w Hw IH|w1 w2 H1 IH1 H2 IH2]; intros level rest; cbn [app skip_comment]; auto.
  rewrite <- app_assoc. rewrite IH1. apply IH2.
Qed.
