From Coq Require Import ZArith List.
From EP Require Import C01.Model C01.Proofs.
From EP Require Gen.C01Shape.
Import ListNotations.

(* every path expression returns each selected node once, in document order - for every document, every path of the
   grammar (13 axes, name/kind tests, positional / existence predicates, nested relative paths), every context *)
Theorem C01_doc_order : forall d ax steps ctx, strict ctx -> strict (sem d ax steps ctx).
Proof.
  intros d ax steps. induction steps as [|s r IH]; intros ctx H; auto.
  apply IH. apply sort_dedupe_strict.
Qed.
Print Assumptions C01_doc_order.
Theorem C01_no_duplicates : forall d ax steps ctx, strict ctx -> NoDup (sem d ax steps ctx).
Proof. intros d ax steps ctx H. exact (proj1 (strict_nodup _ 0 (C01_doc_order d ax steps ctx H))). Qed.
Print Assumptions C01_no_duplicates.

Theorem C01_path_composition : forall d ax s1 s2 ctx, sem d ax (s1 ++ s2) ctx = sem d ax s2 (sem d ax s1 ctx).
Proof. intros d ax s1. induction s1 as [|s r IH]; intros s2 ctx; cbn [app sem]; auto. Qed.
Print Assumptions C01_path_composition.
(* exactly the XDM nodes: E1/E2 selects x iff E2 selects x from some node selected by E1 *)
Theorem C01_step_composition : forall d ax s1 s ctx x,
  In x (sem d ax (s1 ++ [s]) ctx) <-> exists c, In c (sem d ax s1 ctx) /\ In x (sem_step d ax s c).
Proof.
  intros d ax s1 s ctx x. rewrite C01_path_composition. cbn [sem]. rewrite sort_dedupe_in, in_flat_map. tauto.
Qed.
Print Assumptions C01_step_composition.

(* document order leaves no freedom: two duplicate-free document-ordered results with the same nodes are equal *)
Theorem C01_order_is_canonical : forall l1 l2, strict l1 -> strict l2 -> (forall x, In x l1 <-> In x l2) -> l1 = l2.
Proof. intros l1 l2. exact (strict_ext l1 l2 0). Qed.
Print Assumptions C01_order_is_canonical.

(* [n] counts in axis direction: for a reverse axis it is the n-th node counted backwards in document order
   (select_with_focus numbers reverse axes from the far end) *)
Theorem C01_proximity_position : forall d ax a t n i,
  sem_step d ax (Step a t [PPos n]) i =
  match nth_error (let cand := filter (matches d a t) (ax d a i) in if reverse_axis a then rev cand else cand) (n - 1) with
  | Some x => if n =? 0 then [] else [x]
  | None => []
  end.
Proof.
  intros d ax a t n i. cbn [sem_step]. destruct n as [|n].
  - rewrite select_below by auto. destruct (if reverse_axis a then _ else _); reflexivity.
  - rewrite (select_at _ 1 n). cbn. rewrite Nat.sub_0_r. reflexivity.
Qed.
Print Assumptions C01_proximity_position.

(* FULL STATEMENT for the axes: forall d a i, axis_nodes_impl d a i = axis_nodes d a i.  False of the code only for
   following:: from an attribute / namespace node (known finding, enshrined by a pinned test). *)
Theorem C01_axes_refuted : exists d a i, axis_nodes_impl d a i <> axis_nodes d a i.
Proof.
  (* <a k="1">t<b/></a> : following:: from the attribute node is [t; b] *)
  exists [mknode 1 (-1) 1; mknode 3 0 5; mknode 4 0 0; mknode 1 0 2], Following, 1. vm_compute. discriminate.
Qed.
Print Assumptions C01_axes_refuted.
(* every axis from every element, document, text, comment and processing-instruction context node, and every axis
   but following:: from attribute and namespace nodes, is the XDM axis *)
Theorem C01_axes_partial : forall d a i, (is_attr_or_ns d i = false \/ a <> Following) -> axis_nodes_impl d a i = axis_nodes d a i.
Proof.
  intros d a i H. unfold axis_nodes_impl. destruct a; auto.
  destruct H as [H|H]; [rewrite H; reflexivity|congruence].
Qed.
Print Assumptions C01_axes_partial.
(* the iterators before the repairs deviated on text / comment / PI context nodes for following:: and on attribute /
   namespace nodes for preceding:: and preceding-sibling:: *)
Theorem C01_axes_old_refuted :
  (exists d i, axis_nodes_old d Following i <> axis_nodes d Following i /\ is_attr_or_ns d i = false) /\
  (exists d i, axis_nodes_old d Preceding i <> axis_nodes d Preceding i) /\
  (exists d i, axis_nodes_old d PrecedingSibling i <> axis_nodes d PrecedingSibling i).
Proof.
  (* <a k="1">t<b/></a> : from the text node, and from the attribute node *)
  pose (d := [mknode 1 (-1) 1; mknode 3 0 5; mknode 4 0 0; mknode 1 0 2]).
  split; [|split].
  - exists d, 2. vm_compute. split; [discriminate|reflexivity].
  - exists d, 1. vm_compute. discriminate.
  - exists d, 1. vm_compute. discriminate.
Qed.
Print Assumptions C01_axes_old_refuted.

(* <a><x><x><y/></x><y/></x><y/><x><y/></x></a> : //x/following::y  (indices in document order) *)
Example C01_nonvacuous :
  let d := [mknode 1 (-1) 1; mknode 1 0 2; mknode 1 1 2; mknode 1 2 3; mknode 1 1 3; mknode 1 0 3; mknode 1 0 2; mknode 1 6 3] in
  sem d axis_nodes [Step DescendantOrSelf TNode []; Step Child (TName 2) []; Step Following (TName 3) []] [0] = [4; 5; 7] /\
  sem d axis_nodes [Step Descendant (TName 3) []; Step Ancestor (TName 2) [PPos 1]] [0] = [1; 2; 6] /\
  strict [0].
Proof. vm_compute. auto. Qed.

(* the statements of /repo that axis_nodes_impl and the proximity positions mirror are present in the source as read on
   this run (T-data, harness/shape.py -> Gen/C01Shape.v) *)
Theorem C01_source_shape : Gen.C01Shape.shape_ok = true.
Proof. reflexivity. Qed.
Print Assumptions C01_source_shape.
