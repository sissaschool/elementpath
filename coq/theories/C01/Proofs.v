From Coq Require Import List Arith Lia.
From EP Require Import C01.Model.
Import ListNotations.

(* strictly increasing = document order without duplicates *)
Fixpoint strict_from (lo : nat) (l : list nat) : Prop :=
  match l with [] => True | x :: r => lo <= x /\ strict_from (S x) r end.
Definition strict (l : list nat) : Prop := strict_from 0 l.

Lemma strict_weak : forall l a b, strict_from a l -> b <= a -> strict_from b l.
Proof. destruct l; intros; auto. destruct H. split; auto; lia. Qed.

Lemma insert_strict : forall l lo x, strict_from lo l -> lo <= x -> strict_from lo (insert_sorted x l).
Proof.
  induction l as [|y r IH]; intros lo x H Hx; cbn [insert_sorted]; [cbn; auto|].
  destruct H as (H1 & H2). destruct (Nat.ltb_spec x y); [cbn; auto|].
  destruct (Nat.eqb_spec x y); split; auto. apply IH; auto. lia.
Qed.
Lemma insert_in : forall l x y, In y (insert_sorted x l) <-> y = x \/ In y l.
Proof.
  induction l as [|z r IH]; intros x y; cbn [insert_sorted]; [cbn; intuition|].
  destruct (x <? z); [cbn; intuition|]. destruct (Nat.eqb_spec x z) as [->|]; cbn; [|rewrite IH]; intuition.
Qed.
Lemma sort_dedupe_strict : forall l, strict (sort_dedupe l).
Proof. induction l as [|x r IH]; cbn; auto. apply insert_strict; auto. lia. Qed.
Lemma sort_dedupe_in : forall l y, In y (sort_dedupe l) <-> In y l.
Proof. induction l as [|x r IH]; intros y; cbn; [tauto|]. rewrite insert_in, IH. intuition. Qed.

Lemma strict_nodup : forall l lo, strict_from lo l -> NoDup l /\ forall x, In x l -> lo <= x.
Proof.
  induction l as [|x r IH]; intros lo H; cbn; [split; [constructor|tauto]|].
  destruct H as (H1 & H2). destruct (IH _ H2) as (A & B). split.
  - constructor; auto. intros Hin. apply B in Hin. lia.
  - intros y [<-|Hy]; auto. apply B in Hy. lia.
Qed.
Lemma strict_ext : forall l1 l2 lo, strict_from lo l1 -> strict_from lo l2 ->
  (forall x, In x l1 <-> In x l2) -> l1 = l2.
Proof.
  induction l1 as [|x r IH]; intros [|y s] lo H1 H2 E; auto.
  - exfalso. apply (E y). cbn. auto.
  - exfalso. apply (E x). cbn. auto.
  - destruct H1 as (A1 & B1). destruct H2 as (A2 & B2).
    destruct (strict_nodup _ _ B1) as (_ & Lr). destruct (strict_nodup _ _ B2) as (_ & Ls).
    assert (x = y).
    { destruct (proj1 (E x) (or_introl eq_refl)) as [Hx|Hx]; auto.
      destruct (proj2 (E y) (or_introl eq_refl)) as [Hy|Hy]; auto.
      apply Ls in Hx. apply Lr in Hy. lia. }
    subst y. f_equal. apply (IH s (S x)); auto.
    (* a member of either tail is above x, so it is not the common head *)
    intros z. specialize (E z). cbn in E. split; intros Hz; [pose proof (Lr z Hz)|pose proof (Ls z Hz)]; intuition lia.
Qed.

Section Sem.
Variable d : doc.
Variable ax : doc -> axis -> nat -> list nat.

(* the result only depends on the SET of context nodes *)
Lemma sem_step_ctx_set : forall s c1 c2, (forall x, In x c1 <-> In x c2) ->
  sort_dedupe (flat_map (sem_step d ax s) c1) = sort_dedupe (flat_map (sem_step d ax s) c2).
Proof.
  intros s c1 c2 E. apply (strict_ext _ _ 0); try apply sort_dedupe_strict.
  intros x. rewrite !sort_dedupe_in, !in_flat_map. split; intros (c & Hc & Hx); exists c; split; auto; apply E; auto.
Qed.

Lemma number_from_fst : forall l k, map fst (number_from k l) = l.
Proof. induction l; intros; cbn; auto. f_equal. auto. Qed.
Lemma number_from_nth : forall l k n x, nth_error l n = Some x -> In (x, k + n) (number_from k l).
Proof.
  induction l as [|y r IH]; intros k n x H; destruct n; try discriminate.
  - injection H as ->. left. f_equal. lia.
  - right. replace (k + S n) with (S k + n) by lia. apply IH. exact H.
Qed.
Lemma number_from_in : forall l k x p, In (x, p) (number_from k l) -> k <= p /\ nth_error l (p - k) = Some x.
Proof.
  induction l as [|y r IH]; intros k x p H; cbn in H; [tauto|]. destruct H as [H|H].
  - injection H as -> ->. split; auto. rewrite Nat.sub_diag. reflexivity.
  - apply IH in H. destruct H as (H1 & H2). split; [lia|].
    replace (p - k) with (S (p - S k)) by lia. exact H2.
Qed.

(* [n] keeps the candidate numbered n and nothing else *)
Lemma select_below : forall n l k, n < k -> filter (fun xp : nat * nat => snd xp =? n) (number_from k l) = [].
Proof.
  induction l as [|y r IH]; intros k H; cbn; [reflexivity|].
  rewrite (proj2 (Nat.eqb_neq k n)) by lia. apply IH. lia.
Qed.
Lemma select_at : forall l k n, map fst (filter (fun xp : nat * nat => snd xp =? k + n) (number_from k l)) =
  match nth_error l n with Some x => [x] | None => [] end.
Proof.
  induction l as [|y r IH]; intros k [|n]; cbn [number_from filter nth_error snd]; try reflexivity.
  - rewrite Nat.add_0_r, Nat.eqb_refl, select_below by lia. reflexivity.
  - rewrite (proj2 (Nat.eqb_neq k (k + S n))), <- Nat.add_succ_comm by lia. apply IH.
Qed.
End Sem.
