(* The verified checkers of Checkers.v evaluated on the REGENERATED tables (Gen/C13Tables.v, rewritten from
   /repo and from the running interpreter's unicodedata on every run): finite statements closed by vm_compute,
   from which Properties.v derives the table theorems. *)
From Coq Require Import ZArith List Bool.
From EP Require Import C13.Model C13.Checkers Gen.C13Tables.
Import ListNotations.
Open Scope Z_scope.

Lemma minor_tables_ok : forall2b eq_den minor_tables minor_reference = true.
Proof. vm_compute. reflexivity. Qed.
Lemma major_tables_ok : forallb (fun p => eq_den (fst p) (merge_all (snd p))) major_tables = true.
Proof. vm_compute. reflexivity. Qed.
Lemma block_tables_ok : wfb (merge_all block_tables) = true.
Proof. vm_compute. reflexivity. Qed.
Lemma minor_partition_ok :
  let u := merge_all minor_tables in wfb u && eq_den u [Range 0 1114112] = true.
Proof. vm_compute. reflexivity. Qed.
