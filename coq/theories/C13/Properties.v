From Coq Require Import ZArith List Bool Lia ZifyBool.
From EP Require Import C13.Model C13.Proofs.
From EP Require Gen.C13Shape.
Import ListNotations.
Open Scope Z_scope.

(* every reachable state denotes the set obtained by the mathematical set operations *)
Theorem C13_ops_den : forall ops s, WF s -> Forall valid_op ops ->
  forall x, den (fold_left apply_op ops s) x = fold_left apply_set_op ops (den s) x.
Proof. intros ops s H1 H2. exact (proj2 (ops_spec ops s _ H1 (fun _ => eq_refl) H2)). Qed.
Print Assumptions C13_ops_den.

(* every reachable state is sorted, non-overlapping, with non-empty items *)
Theorem C13_wf_reachable : forall ops s, WF s -> Forall valid_op ops -> WF (fold_left apply_op ops s).
Proof. intros ops s H1 H2. exact (proj1 (ops_spec ops s _ H1 (fun _ => eq_refl) H2)). Qed.
Print Assumptions C13_wf_reachable.

(* complement() of a stored list whose items are sorted, disjoint and lie within [0, z] (chain 0 l z; WF alone does not
   bound them) is the set complement within the code points; on an unordered list the code raises ValueError (None) *)
Theorem C13_complement : forall l z, chain 0 l z -> z <= maxunicode + 1 ->
  exists r, complement l = Some r /\ WF r /\
            forall x, 0 <= x <= maxunicode -> den r x = negb (den l x).
Proof.
  intros l z Hc Hz. destruct (complement_loop_spec l 0 z Hc Hz) as (r & Hr & H1 & H2).
  exists r. split; [exact Hr|]. split; [exact (chain_WF _ _ _ H1)|exact H2].
Qed.
Print Assumptions C13_complement.

(* canonical lists are extensional: equal denotation => equal list *)
Theorem C13_extensional : forall s t, canonP s -> canonP t -> (forall x, den s x = den t x) -> s = t.
Proof.
  induction s as [|i r IH]; intros [|j r'] Hs Ht Hext; [reflexivity| | |].
  - destruct (canonP_chain _ _ Ht) as (Hj & _). specialize (Hext (lo j)). revert Hext. den_lia.
  - destruct (canonP_chain _ _ Hs) as (Hi & _). specialize (Hext (lo i)). revert Hext. den_lia.
  - destruct (canonP_chain _ _ Hs) as (Hi & zr & Hcr). destruct (canonP_chain _ _ Ht) as (Hj & zt & Hct).
    pose proof (fun x => den_false_below r _ _ x Hcr) as Fr. pose proof (fun x => den_false_below r' _ _ x Hct) as Ft.
    (* the two heads have the same bounds: compare the denotations at each of the four *)
    assert (Hlo : lo i = lo j).
    { pose proof (Hext (lo i)). pose proof (Hext (lo j)). pose proof (Fr (lo j)). pose proof (Ft (lo i)).
      cbn [den] in *. unfold in_item in *. lia. }
    assert (Hhi : hi i = hi j).
    { pose proof (Hext (hi i)). pose proof (Hext (hi j)). pose proof (Fr (hi i)). pose proof (Ft (hi j)).
      cbn [den] in *. unfold in_item in *. lia. }
    destruct Hs as (Hs1 & _ & Hs3), Ht as (Ht1 & _ & Ht3).
    assert (i = j) by (apply item_eq_bounds; auto). subst j. f_equal.
    apply IH; auto. intros x. specialize (Hext x). specialize (Fr x). specialize (Ft x).
    cbn [den] in Hext. unfold in_item in Hext. lia.
Qed.
Print Assumptions C13_extensional.

(* FULL STATEMENT (property text: "keep a canonical sorted, non-overlapping, merged representation"):
     forall ops s, canonP s -> Forall valid_op ops -> canonP (fold_left apply_op ops s).
   It is false of the faithful model (and of the pinned code): add() leaves touching ranges
   un-merged.  Witnesses replayed on the implementation by the check (known finding C13-add-not-merged). *)
Theorem C13_canonical_refuted :
  exists ops s, canonb s = true /\ Forall valid_op ops /\ canonb (fold_left apply_op ops s) = false.
Proof.
  exists [OAdd (Range 3 10)], [Range 0 5; Range 7 9; Range 20 30].
  split; [vm_compute; reflexivity|]. split; [|vm_compute; reflexivity].
  constructor; [unfold valid_op, nonempty; cbn; reflexivity|constructor].
Qed.
Print Assumptions C13_canonical_refuted.
(* the same set reached two ways has two representations *)
Theorem C13_extensional_equality_refuted :
  exists s t, (forall x, den s x = den t x) /\ s <> t /\
              s = add (Single 5) [] /\ t = add (Range 5 6) [].
Proof.
  exists [Single 5], [Range 5 6]. split; [|split; [discriminate|split; reflexivity]].
  intros x. reflexivity.
Qed.
Print Assumptions C13_extensional_equality_refuted.

(* non-vacuity: the hypotheses are met by a non-trivial state and operation list *)
Example C13_hyps_nonvacuous :
  WF [Range 0 5; Single 7; Range 20 30] /\
  Forall valid_op [OAdd (Range 3 10); ODiscard (Single 4); OIxor [Range 2 8]; OIand [Range 0 25]].
Proof.
  split; [apply wfb_WF; vm_compute; reflexivity|].
  repeat constructor.
Qed.

(* ---- tables: regenerated from /repo and unicodedata on every run (Gen/C13Tables.v) ---- *)
From EP Require Import C13.Checkers C13.Tables Gen.C13Tables.

(* installed category data = unicodedata.category on every one of the 0x110000 code points *)
Theorem C13_categories_eq_unicodedata :
  Forall2 (fun t r => forall x, den t x = den r x) minor_tables minor_reference.
Proof. exact (forall2b_sound _ _ _ _ eq_den_sound _ _ minor_tables_ok). Qed.
Print Assumptions C13_categories_eq_unicodedata.

Theorem C13_major_is_union :
  Forall (fun p => forall x, den (fst p) x = existsb (fun l => den l x) (snd p)) major_tables.
Proof.
  apply Forall_forall. intros p Hp x. rewrite <- den_merge_all. apply eq_den_sound.
  exact (proj1 (forallb_forall _ _) major_tables_ok p Hp).
Qed.
Print Assumptions C13_major_is_union.

Theorem C13_categories_partition :
  ForallOrdPairs (fun a b => forall x, den a x && den b x = false) minor_tables /\
  forall x, 0 <= x < 1114112 -> existsb (fun l => den l x) minor_tables = true.
Proof.
  destruct (proj1 (andb_true_iff _ _) minor_partition_ok) as (W & C). apply wfb_WF in W.
  split; [exact (merge_all_WF_disjoint _ W)|]. intros x Hx.
  rewrite <- den_merge_all, (eq_den_sound _ _ C). den_lia.
Qed.
Print Assumptions C13_categories_partition.

Theorem C13_blocks_disjoint :
  ForallOrdPairs (fun a b => forall x, den a x && den b x = false) block_tables.
Proof. exact (merge_all_WF_disjoint _ (proj1 (wfb_WF _) block_tables_ok)). Qed.
Print Assumptions C13_blocks_disjoint.

Example C13_tables_nonvacuous : length minor_tables = 30%nat /\ length minor_reference = 30%nat /\
  length major_tables = 7%nat /\ (length block_tables > 300)%nat.
Proof. vm_compute. repeat split; repeat constructor. Qed.

(* the statements of /repo that the hand model mirrors are present in the source as read on this run (T-data,
   harness/shape.py -> Gen/C13Shape.v) *)
Theorem C13_source_shape : Gen.C13Shape.shape_ok = true.
Proof. reflexivity. Qed.
Print Assumptions C13_source_shape.
