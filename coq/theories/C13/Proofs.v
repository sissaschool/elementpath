(* C13 proofs: denotation and well-formedness of every mutating operation of the
   UnicodeSubset model, lifted to every operation sequence. *)
From Coq Require Import ZArith List Bool Lia ZifyBool.
From EP Require Import C13.Model.
Import ListNotations.
Open Scope Z_scope.

(* chains: a <= lo i1 < hi i1 <= lo i2 < ... < hi in <= z; chaind reads the same list from its
   upper end, as the loop of discard does *)
Fixpoint chain (a : Z) (l : list item) (z : Z) : Prop :=
  match l with
  | [] => a <= z
  | i :: r => a <= lo i /\ lo i < hi i /\ chain (hi i) r z
  end.
Fixpoint chaind (z : Z) (rl : list item) (a : Z) : Prop :=
  match rl with
  | [] => a <= z
  | i :: r => hi i <= z /\ lo i < hi i /\ chaind (lo i) r a
  end.

Lemma chain_le : forall l a z, chain a l z -> a <= z.
Proof. induction l as [|i r IH]; cbn; intros a z H; [lia|]. destruct H as (H1 & H2 & H3). apply IH in H3. lia. Qed.
Lemma chain_weak : forall l a a' z z', chain a l z -> a' <= a -> z <= z' -> chain a' l z'.
Proof.
  induction l as [|i r IH]; cbn; intros a a' z z' H Ha Hz; [lia|].
  destruct H as (H1 & H2 & H3). repeat split; try lia. eapply IH; eauto. lia.
Qed.
Lemma chain_app : forall l1 l2 a z, chain a (l1 ++ l2) z <-> exists m, chain a l1 m /\ chain m l2 z.
Proof.
  induction l1 as [|i r IH]; cbn; intros l2 a z.
  - split.
    + intros H. exists a. split; [lia|exact H].
    + intros (m & Hm & H). eapply chain_weak; eauto; lia.
  - split.
    + intros (H1 & H2 & H3). apply IH in H3. destruct H3 as (m & Ha & Hb). exists m. tauto.
    + intros (m & (H1 & H2 & H3) & H4). repeat split; auto. apply IH. exists m. tauto.
Qed.

Lemma chaind_rev : forall l a z, chaind z l a <-> chain a (rev l) z.
Proof.
  induction l as [|i r IH]; intros a z; cbn [rev chaind]; [reflexivity|].
  rewrite chain_app, IH. cbn [chain]. split.
  - intros (H1 & H2 & H3). exists (lo i). split; [exact H3|lia].
  - intros (m & Hm & H). repeat split; try lia. eapply chain_weak; eauto; lia.
Qed.
Lemma chaind_weak : forall l a a' z z', chaind z l a -> a' <= a -> z <= z' -> chaind z' l a'.
Proof. intros l a a' z z'. rewrite !chaind_rev. apply chain_weak. Qed.

(* goals chain _ (i :: r) _ where a chain of r is at hand, up to its bounds *)
Local Ltac chain_lia :=
  cbn [chain chaind lo hi] in *; repeat split; try lia;
  ((eapply chain_weak || eapply chaind_weak); [eassumption|lia..]).

Lemma WF_chain : forall l, WF l -> exists a z, chain a l z.
Proof.
  induction l as [|i r IH]; cbn [WF]; intros H.
  - exists 0, 0. cbn. lia.
  - destruct H as (H1 & H2 & H3). destruct (IH H3) as (a & z & Hz). destruct r as [|j r'].
    + exists (lo i), (hi i). cbn. lia.
    + exists (lo i), z. cbn [chain] in *. intuition lia.
Qed.
Lemma chain_WF : forall l a z, chain a l z -> WF l.
Proof.
  induction l as [|i r IH]; cbn; intros a z H; auto.
  destruct H as (H1 & H2 & H3). split; [exact H2|]. split; [|eapply IH; eauto].
  destruct r as [|j r']; auto. cbn in H3. lia.
Qed.
Lemma wfb_WF : forall l, wfb l = true <-> WF l.
Proof.
  induction l as [|i r IH]; cbn [wfb WF]; [tauto|].
  rewrite !andb_true_iff, IH. destruct r as [|j r']; rewrite ?Z.ltb_lt, ?Z.leb_le; intuition.
Qed.
Lemma WF_tail : forall i l, WF (i :: l) -> WF l.
Proof. intros i l H. apply H. Qed.

(* boolean goals over den, once the items are reduced to their bounds; lia takes den of the
   remaining list as an unknown boolean *)
Ltac den_lia := cbn [den]; unfold in_item; cbn [lo hi]; lia.

Lemma den_app : forall l1 l2 x, den (l1 ++ l2) x = den l1 x || den l2 x.
Proof. induction l1 as [|i r IH]; cbn; intros; auto. rewrite IH, orb_assoc. reflexivity. Qed.
Lemma den_rev : forall l x, den (rev l) x = den l x.
Proof. induction l as [|i r IH]; cbn; intros; auto. rewrite den_app, IH. den_lia. Qed.
Lemma chain_den_bounds : forall l a z x, chain a l z -> den l x = true -> a <= x < z.
Proof.
  induction l as [|i r IH]; cbn [chain]; intros a z x H D; [discriminate|].
  destruct H as (H1 & H2 & H3). pose proof (chain_le _ _ _ H3). specialize (IH _ _ x H3). revert D. den_lia.
Qed.
Lemma chaind_den_bounds : forall l a z x, chaind z l a -> den l x = true -> a <= x < z.
Proof. intros l a z x H D. apply chaind_rev in H. rewrite <- den_rev in D. eapply chain_den_bounds; eauto. Qed.
Lemma den_false_above : forall l a z x, chain a l z -> z <= x -> den l x = false.
Proof.
  intros. destruct (den l x) eqn:D; auto. pose proof (chain_den_bounds _ _ _ _ H D). lia.
Qed.
Lemma den_false_below : forall l a z x, chain a l z -> x < a -> den l x = false.
Proof.
  intros. destruct (den l x) eqn:D; auto. pose proof (chain_den_bounds _ _ _ _ H D). lia.
Qed.
Lemma dend_false_above : forall l a z x, chaind z l a -> z <= x -> den l x = false.
Proof.
  intros. destruct (den l x) eqn:D; auto. pose proof (chaind_den_bounds _ _ _ _ H D). lia.
Qed.
Lemma WF_above : forall i l x, WF (i :: l) -> den l x = true -> hi i <= x.
Proof.
  intros i l x W D. destruct (WF_chain _ W) as (a & z & _ & _ & C). apply (chain_den_bounds _ _ _ _ C D).
Qed.

(* Once the carried range [s, e) reaches the head of what remains of the list, neither insert nor
   append of `value` can be reached: from there on the result depends on s and e only.  This is the
   state after "start_cp = higher_bound; continue", and the state of the first item that value touches. *)
Lemma add_loop_touch : forall l v s e b z, chain b l z -> b <= s ->
  match l with [] => False | cp :: _ => lo cp <= e /\ s <= hi cp end ->
  chain b (add_loop l v s e) (Z.max z e) /\
  forall x, den (add_loop l v s e) x = den l x || in_item (Range s e) x.
Proof.
  induction l as [|cp rest IH]; intros v s e b z Hc Hb Ht; [destruct Ht|].
  destruct Hc as (Hc1 & Hc2 & Hc3). cbn [add_loop].
  (* by Ht the tests for insert and for continue fail *)
  destruct (e <? lo cp) eqn:E1; [lia|]. destruct (s >? hi cp) eqn:E2; [lia|].
  destruct (e >? hi cp) eqn:E3.
  - (* the range ends above cp: it is cut at the next item, if it gets beyond that *)
    destruct rest as [|nx rest]; [split; [chain_lia|intros x; den_lia]|].
    destruct Hc3 as (Hn1 & Hn2 & Hn3).
    destruct (e <=? lo nx) eqn:E4; [split; [chain_lia|intros x; den_lia]|].
    destruct (IH v (lo nx) e (lo nx) z) as (IH1 & IH2); [chain_lia|lia..|cbn; lia|].
    split; [chain_lia|]. intros x. cbn [den] in *. rewrite IH2. den_lia.
  - (* the range ends inside cp *)
    destruct (s <? lo cp) eqn:E5; (split; [chain_lia|intros x; den_lia]).
Qed.

Lemma add_loop_spec : forall l v b z, chain b l z -> b <= lo v -> lo v < hi v ->
  chain b (add_loop l v (lo v) (hi v)) (Z.max z (hi v)) /\
  forall x, den (add_loop l v (lo v) (hi v)) x = den l x || in_item v x.
Proof.
  induction l as [|cp rest IH]; intros v b z Hc Hb Hv.
  - cbn in *. split; [lia|intros x; den_lia].
  - destruct (hi v <? lo cp) eqn:E1; [|destruct (lo v >? hi cp) eqn:E2].
    + cbn [add_loop]. rewrite E1. destruct Hc as (Hc1 & Hc2 & Hc3). split; [chain_lia|intros x; den_lia].
    + cbn [add_loop]. rewrite E1, E2. destruct Hc as (Hc1 & Hc2 & Hc3).
      destruct (IH v (hi cp) z Hc3) as (IH1 & IH2); [lia..|]. split; [chain_lia|].
      intros x. cbn [den]. rewrite IH2. den_lia.
    + apply add_loop_touch; auto; lia.
Qed.

Lemma add_spec : forall l v, WF l -> lo v < hi v ->
  WF (add v l) /\ forall x, den (add v l) x = den l x || in_item v x.
Proof.
  intros l v W Hv. destruct (WF_chain l W) as (a & z & C).
  destruct (add_loop_spec l v (Z.min a (lo v)) z) as (C' & D); [eapply chain_weak; eauto; lia|lia|exact Hv|].
  split; [exact (chain_WF _ _ _ C')|exact D].
Qed.

Lemma piece_lo : forall a b, lo (piece a b) = a.
Proof. intros. unfold piece. destruct (b - a >? 1); reflexivity. Qed.
Lemma piece_hi : forall a b, a < b -> hi (piece a b) = b.
Proof. intros. unfold piece. destruct (b - a >? 1) eqn:E; cbn; lia. Qed.
(* what discard leaves of an item above the removed range, in the form the code writes it *)
Lemma upper_piece : forall e h, e < h -> (if h - e >? 1 then Range e h else Single (h - 1)) = piece e h.
Proof. intros e h H. unfold piece. destruct (h - e >? 1) eqn:E; [reflexivity|]. f_equal. lia. Qed.

Lemma discard_rev_spec : forall rl s e a z, chaind z rl a -> s < e ->
  chaind z (discard_rev rl s e) a /\
  forall x, den (discard_rev rl s e) x = den rl x && negb (in_item (Range s e) x).
Proof.
  induction rl as [|cp rest IH]; intros s e a z Hc Hse; [split; [exact Hc|reflexivity]|].
  destruct Hc as (Hc1 & Hc2 & Hc3).
  destruct (IH s e a (lo cp) Hc3 Hse) as (IH1 & IH2). cbn [discard_rev].
  destruct (s >=? hi cp) eqn:E1.
  { (* break: the whole list lies below s *)
    split; [chain_lia|]. intros x.
    pose proof (chaind_den_bounds (cp :: rest) a (hi cp) x (conj (Z.le_refl _) (conj Hc2 Hc3))).
    unfold in_item. cbn [lo hi]. lia. }
  (* cp is deleted, cut to its piece below s, to its piece above e, to both, or kept; lia reads the
     bounds of the pieces from the context *)
  pose proof (piece_lo (lo cp) s). pose proof (piece_hi (lo cp) s).
  pose proof (piece_lo e (hi cp)). pose proof (piece_hi e (hi cp)).
  destruct (e >=? hi cp) eqn:E2; [|destruct (e >? lo cp) eqn:E3; [rewrite upper_piece by lia|]].
  1, 2: destruct (s <=? lo cp) eqn:E4.
  all: split; [chain_lia|intros x; cbn [den]; rewrite ?IH2; den_lia].
Qed.

Lemma discard_spec : forall l v, WF l -> lo v < hi v ->
  WF (discard v l) /\ forall x, den (discard v l) x = den l x && negb (in_item v x).
Proof.
  intros l v W Hv. destruct (WF_chain l W) as (a & z & C). unfold discard.
  rewrite <- (rev_involutive l) in C. apply chaind_rev in C.
  destruct (discard_rev_spec _ (lo v) (hi v) _ _ C Hv) as (C' & D). apply chaind_rev in C'.
  split; [exact (chain_WF _ _ _ C')|]. intros x. rewrite den_rev, D, den_rev. reflexivity.
Qed.

Lemma valid_nonempty : forall v, valid_item v = true -> nonempty v.
Proof. intros [c|a b]; unfold nonempty; cbn; lia. Qed.
Lemma WF_nonempty : forall l, WF l -> Forall nonempty l.
Proof. induction l as [|i r IH]; cbn; intros H; constructor; [tauto|apply IH; tauto]. Qed.

Lemma fold_add_spec : forall vs s, WF s -> Forall nonempty vs ->
  WF (fold_left (fun acc v => add v acc) vs s) /\
  forall x, den (fold_left (fun acc v => add v acc) vs s) x = den s x || den vs x.
Proof.
  induction vs as [|v vs IH]; intros s Hwf Hne; cbn [fold_left].
  - split; auto. intros. cbn. rewrite orb_false_r. reflexivity.
  - inversion Hne as [|? ? Hv Hvs]; subst. destruct (add_spec s v Hwf Hv) as (W & D).
    destruct (IH _ W Hvs) as (H1 & H2). split; auto.
    intros x. rewrite H2, D. cbn [den]. rewrite orb_assoc. reflexivity.
Qed.
Lemma fold_discard_spec : forall vs s, WF s -> Forall nonempty vs ->
  WF (fold_left (fun acc v => discard v acc) vs s) /\
  forall x, den (fold_left (fun acc v => discard v acc) vs s) x = den s x && negb (den vs x).
Proof.
  induction vs as [|v vs IH]; intros s Hwf Hne; cbn [fold_left].
  - split; auto. intros. cbn. rewrite andb_true_r. reflexivity.
  - inversion Hne as [|? ? Hv Hvs]; subst. destruct (discard_spec s v Hwf Hv) as (W & D).
    destruct (IH _ W Hvs) as (H1 & H2). split; auto.
    intros x. rewrite H2, D. cbn [den]. rewrite negb_orb, andb_assoc. reflexivity.
Qed.

Lemma ior_spec : forall s o, WF s -> WF o ->
  WF (ior s o) /\ forall x, den (ior s o) x = den s x || den o x.
Proof.
  intros s o Hs Ho. destruct (fold_add_spec (rev o) s Hs (Forall_rev (WF_nonempty _ Ho))) as (H1 & H2).
  split; auto. intros x. unfold ior. rewrite H2, den_rev. reflexivity.
Qed.
Lemma isub_spec : forall s o, WF s -> WF o ->
  WF (isub s o) /\ forall x, den (isub s o) x = den s x && negb (den o x).
Proof.
  intros s o Hs Ho. destruct (fold_discard_spec (rev o) s Hs (Forall_rev (WF_nonempty _ Ho))) as (H1 & H2).
  split; auto. intros x. unfold isub. rewrite H2, den_rev. reflexivity.
Qed.

Lemma zrange_in : forall n a x, In x (zrange a n) <-> a <= x < a + Z.of_nat n.
Proof.
  induction n as [|n IH]; intros a x; cbn [zrange In].
  - lia.
  - rewrite IH. lia.
Qed.
Lemma points_cons : forall i r, points (i :: r) = zrange (lo i) (Z.to_nat (hi i - lo i)) ++ points r.
Proof. reflexivity. Qed.
Lemma points_in : forall l x, In x (points l) <-> den l x = true.
Proof.
  induction l as [|i r IH]; intros x.
  - cbn. split; [tauto|discriminate].
  - rewrite points_cons, in_app_iff, IH, zrange_in. den_lia.
Qed.

(* __iand__ and __ixor__ walk over the code points of a subset l and change the membership of each one
   on its own: x stays as it is outside l, and becomes h (x in s) inside, for discard (h = false) as for
   the toggle of xor (h = negb).  Each point is met once, the items of l being disjoint. *)
Section PointUpdate.
Variables (f : list item -> Z -> list item) (h : bool -> bool).
Hypothesis f_spec : forall s c, WF s ->
  WF (f s c) /\ forall x, den (f s c) x = if x =? c then h (den s x) else den s x.

Lemma fold_zrange : forall n a s, WF s ->
  WF (fold_left f (zrange a n) s) /\
  forall x, den (fold_left f (zrange a n) s) x
            = if (a <=? x) && (x <? a + Z.of_nat n) then h (den s x) else den s x.
Proof.
  induction n as [|n IH]; intros a s W; cbn [zrange fold_left].
  - split; [exact W|]. intros x. replace ((a <=? x) && (x <? a + Z.of_nat 0)) with false by lia. reflexivity.
  - destruct (f_spec s a W) as (W' & D). destruct (IH (a + 1) _ W') as (W'' & D'). split; [exact W''|].
    intros x. rewrite D', D.
    destruct (x =? a) eqn:E1, ((a + 1 <=? x) && (x <? a + 1 + Z.of_nat n)) eqn:E2,
      ((a <=? x) && (x <? a + Z.of_nat (S n))) eqn:E3; lia.
Qed.
Lemma fold_points : forall l s, WF l -> WF s ->
  WF (fold_left f (points l) s) /\
  forall x, den (fold_left f (points l) s) x = if den l x then h (den s x) else den s x.
Proof.
  induction l as [|i r IH]; intros s Wl W; [split; [exact W|reflexivity]|].
  rewrite points_cons, fold_left_app.
  destruct (fold_zrange (Z.to_nat (hi i - lo i)) (lo i) s W) as (W' & D).
  destruct (IH _ (WF_tail _ _ Wl) W') as (W'' & D'). split; [exact W''|].
  intros x. rewrite D', D. pose proof (WF_above i r x Wl) as Hx. destruct Wl as (Hi & _).
  replace (lo i + Z.of_nat (Z.to_nat (hi i - lo i))) with (hi i) by lia. cbn [den]. fold (in_item i x).
  destruct (den r x); [replace (in_item i x) with false by (unfold in_item; lia)|rewrite orb_false_r]; reflexivity.
Qed.
End PointUpdate.

Lemma iand_spec : forall s o, WF s -> WF o ->
  WF (iand s o) /\ forall x, den (iand s o) x = den s x && den o x.
Proof.
  intros s o Hs Ho. destruct (isub_spec s o Hs Ho) as (Hw & Hd).
  destruct (fold_points (fun acc c => discard (Single c) acc) (fun _ => false)) with (l := isub s o) (s := s)
    as (W & D); auto.
  - intros t c Wt. destruct (discard_spec t (Single c) Wt) as (W & D); [cbn; lia|]. split; [exact W|].
    intros x. rewrite D. destruct (x =? c) eqn:E; den_lia.
  - split; [exact W|]. intros x. unfold iand. rewrite D, Hd. destruct (den s x), (den o x); reflexivity.
Qed.
Lemma ixor_spec : forall s o, WF s -> WF o ->
  WF (ixor s o) /\ forall x, den (ixor s o) x = xorb (den s x) (den o x).
Proof.
  intros s o Hs Ho.
  destruct (fold_points (fun acc c => if den acc c then discard (Single c) acc else add (Single c) acc) negb)
    with (l := o) (s := s) as (W & D); auto.
  - intros t c Wt. destruct (discard_spec t (Single c) Wt) as (W1 & D1); [cbn; lia|].
    destruct (add_spec t (Single c) Wt) as (W2 & D2); [cbn; lia|].
    destruct (den t c) eqn:E; (split; [assumption|]); intros x; [rewrite D1|rewrite D2].
    all: destruct (x =? c) eqn:Ex; [replace x with c by lia; rewrite E|]; den_lia.
  - split; [exact W|]. intros x. unfold ixor. rewrite D. destruct (den s x), (den o x); reflexivity.
Qed.

Lemma apply_op_spec : forall s o, WF s -> valid_op o ->
  WF (apply_op s o) /\ forall x, den (apply_op s o) x = apply_set_op (den s) o x.
Proof.
  intros s [v|v|t|t|t|t]; cbn [apply_op apply_set_op valid_op];
    [apply add_spec|apply discard_spec|apply ior_spec|apply isub_spec|apply iand_spec|apply ixor_spec].
Qed.

Lemma set_op_ext : forall f g o, (forall x, f x = g x) -> forall x, apply_set_op f o x = apply_set_op g o x.
Proof. intros f g [v|v|t|t|t|t] H x; cbn; rewrite H; reflexivity. Qed.

Lemma ops_spec : forall ops s f, WF s -> (forall x, den s x = f x) -> Forall valid_op ops ->
  WF (fold_left apply_op ops s) /\
  forall x, den (fold_left apply_op ops s) x = fold_left apply_set_op ops f x.
Proof.
  induction ops as [|o ops IH]; intros s f Hs Hf Hv; cbn [fold_left]; [split; assumption|].
  inversion Hv as [|? ? Ho Hops]; subst. destruct (apply_op_spec s o Hs Ho) as (W & D).
  apply IH; auto. intros x. rewrite D. apply set_op_ext, Hf.
Qed.

Lemma complement_loop_spec : forall l last z, chain last l z -> z <= maxunicode + 1 ->
  exists r, complement_loop last l = Some r /\ chain last r (maxunicode + 1) /\
            forall x, last <= x <= maxunicode -> den r x = negb (den l x).
Proof.
  induction l as [|cp rest IH]; intros last z Hc Hz; cbn [complement_loop]; unfold maxunicode in *.
  - cbn [chain] in Hc. eexists. split; [reflexivity|].
    destruct (last <? 1114111) eqn:E1; [|destruct (last =? 1114111) eqn:E2].
    all: split; [cbn [chain lo hi]; lia|intros x Hx; den_lia].
  - destruct Hc as (H1 & H2 & H3). destruct (IH (hi cp) z H3) as (r & -> & C & D); [lia..|].
    (* below hi cp neither the rest of the list nor its complement has a point *)
    assert (Hx : forall x, (x < hi cp -> den rest x = false /\ den r x = false) /\
                           (hi cp <= x <= 1114111 -> den r x = negb (den rest x))).
    { intros x. split; [split; eapply den_false_below; eauto|apply D]. }
    (* a gap of at least three points, of two, of one, or none; less is excluded by the chain *)
    destruct (lo cp - last >? 2) eqn:E1; [|destruct (lo cp - last =? 2) eqn:E2;
      [|destruct (lo cp - last =? 1) eqn:E3; [|destruct (lo cp - last =? 0) eqn:E4; [|lia]]]].
    all: eexists; split; [reflexivity|]; split; [chain_lia|]; intros x Hr; specialize (Hx x); den_lia.
Qed.

Lemma canonb_P : forall l, canonb l = true <-> canonP l.
Proof.
  induction l as [|i r IH]; cbn [canonb canonP]; [tauto|].
  rewrite !andb_true_iff, IH. destruct i as [c|a b], r as [|j r']; cbn [canon_item lo hi];
    rewrite ?Z.ltb_lt; intuition.
Qed.
Lemma canonP_chain : forall i l, canonP (i :: l) -> lo i < hi i /\ exists z, chain (hi i + 1) l z.
Proof.
  intros i l. revert i. induction l as [|j r IH]; intros i (H1 & H2 & H3).
  - split; [destruct i; cbn in *; lia|]. exists (hi i + 1). cbn. lia.
  - destruct (IH j H3) as (Hj & z & Hz). split; [destruct i; cbn in *; lia|]. exists z. chain_lia.
Qed.
Lemma item_eq_bounds : forall i j,
  (match i with Single _ => True | Range a b => a + 1 < b end) ->
  (match j with Single _ => True | Range a b => a + 1 < b end) ->
  lo i = lo j -> hi i = hi j -> i = j.
Proof. intros [c|a b] [c'|a' b']; cbn; intros; f_equal; lia. Qed.

(* sorted by lower bound, non-empty items: norm keeps the denotation of such a list, which may overlap
   (eq_den of Checkers.v compares two of them by their norm) *)
Fixpoint slo (a : Z) (l : list item) : Prop :=
  match l with [] => True | i :: r => a <= lo i /\ lo i < hi i /\ slo (lo i) r end.
Fixpoint slob (a : Z) (l : list item) : bool :=
  match l with [] => true | i :: r => (a <=? lo i) && (lo i <? hi i) && slob (lo i) r end.
Lemma slob_slo : forall l a, slob a l = true <-> slo a l.
Proof.
  induction l as [|i r IH]; intros a; cbn [slob slo]; [tauto|].
  rewrite !andb_true_iff, IH, Z.leb_le, Z.ltb_lt. tauto.
Qed.
Lemma slo_weak : forall l a a', slo a l -> a' <= a -> slo a' l.
Proof. destruct l as [|i r]; cbn; intros; auto. repeat split; try tauto. lia. Qed.
Lemma chain_slo : forall l a z, chain a l z -> slo a l.
Proof.
  induction l as [|i r IH]; cbn; intros a z H; auto. destruct H as (H1 & H2 & H3).
  repeat split; auto. eapply slo_weak; [eapply IH; eauto|lia].
Qed.

Lemma norm_loop_den : forall l s e x, s < e -> slo s l ->
  den (norm_loop l s e) x = in_item (Range s e) x || den l x.
Proof.
  induction l as [|cp rest IH]; intros s e x Hse Hs; cbn [norm_loop].
  - cbn [den]. unfold in_item. rewrite piece_lo, piece_hi; auto.
  - destruct Hs as (H1 & H2 & H3). destruct (lo cp <=? e) eqn:E.
    + rewrite IH; [|lia|eapply slo_weak; eauto]. den_lia.
    + cbn [den]. rewrite IH; auto. unfold in_item at 1. rewrite piece_lo, piece_hi; auto.
Qed.
Lemma norm_den : forall l x a, slo a l -> den (norm l) x = den l x.
Proof.
  intros [|cp rest] x a H; cbn [norm]; auto. destruct H as (H1 & H2 & H3).
  rewrite norm_loop_den; auto.
Qed.
