(* Verified checkers on range lists: statements about all 0x110000 code points are proved by
   vm_compute on a few thousand ranges.  Unions are taken by a linear merge on the lower bounds
   (not by the model's quadratic add loop), and disjointness is read off the merged list:
   if it is well formed, no two of its items overlap. *)
From Coq Require Import ZArith List Bool Lia ZifyBool.
From EP Require Import C13.Model C13.Proofs.
Import ListNotations.
Open Scope Z_scope.

Definition item_eqb (i j : item) : bool :=
  match i, j with
  | Single a, Single b => a =? b
  | Range a b, Range c d => (a =? c) && (b =? d)
  | _, _ => false
  end.
Fixpoint list_eqb (a b : list item) : bool :=
  match a, b with
  | [], [] => true
  | i :: a', j :: b' => item_eqb i j && list_eqb a' b'
  | _, _ => false
  end.
Lemma item_eqb_eq : forall i j, item_eqb i j = true -> i = j.
Proof. intros [a|a b] [c|c d]; cbn; intros H; f_equal; lia. Qed.
Lemma list_eqb_eq : forall a b, list_eqb a b = true -> a = b.
Proof.
  induction a as [|i a IH]; intros [|j b]; cbn; intros H; try discriminate; auto.
  apply andb_true_iff in H. destruct H as (H1 & H2). f_equal; [apply item_eqb_eq|apply IH]; auto.
Qed.

Definition eq_den (a b : list item) : bool := slob 0 a && slob 0 b && list_eqb (norm a) (norm b).
Lemma eq_den_sound : forall a b, eq_den a b = true -> forall x, den a x = den b x.
Proof.
  intros a b H x. unfold eq_den in H. rewrite !andb_true_iff in H. destruct H as ((Ha & Hb) & He).
  apply slob_slo in Ha. apply slob_slo in Hb. apply list_eqb_eq in He.
  rewrite <- (norm_den a x 0 Ha), <- (norm_den b x 0 Hb), He. reflexivity.
Qed.

Fixpoint forall2b {A B} (f : A -> B -> bool) (l1 : list A) (l2 : list B) : bool :=
  match l1, l2 with
  | [], [] => true
  | a :: r1, b :: r2 => f a b && forall2b f r1 r2
  | _, _ => false
  end.
Lemma forall2b_sound : forall A B (f : A -> B -> bool) (P : A -> B -> Prop),
  (forall a b, f a b = true -> P a b) -> forall l1 l2, forall2b f l1 l2 = true -> Forall2 P l1 l2.
Proof.
  intros A B f P Hf. induction l1 as [|a r1 IH]; intros [|b r2]; cbn; intros H; try discriminate; constructor.
  - apply Hf. apply andb_true_iff in H. tauto.
  - apply IH. apply andb_true_iff in H. tauto.
Qed.

(* union of lists sorted by lower bound, again sorted by lower bound *)
Fixpoint merge (a : list item) : list item -> list item :=
  match a with
  | [] => fun b => b
  | i :: a' =>
    fix merge_a (b : list item) : list item :=
      match b with
      | [] => a
      | j :: b' => if lo i <=? lo j then i :: merge a' b else j :: merge_a b'
      end
  end.
Definition merge_all (ls : list (list item)) : list item := fold_right merge [] ls.

Lemma merge_cons : forall i a j b,
  merge (i :: a) (j :: b) = if lo i <=? lo j then i :: merge a (j :: b) else j :: merge (i :: a) b.
Proof. reflexivity. Qed.

Lemma den_merge : forall a b x, den (merge a b) x = den a x || den b x.
Proof.
  induction a as [|i a IHa]; [reflexivity|].
  induction b as [|j b IHb]; intros x; [symmetry; apply orb_false_r|].
  rewrite merge_cons. destruct (lo i <=? lo j); cbn [den]; [rewrite IHa|rewrite IHb]; cbn [den];
    destruct (in_item i x), (in_item j x), (den a x); reflexivity.
Qed.
Lemma den_merge_all : forall ls x, den (merge_all ls) x = existsb (fun l => den l x) ls.
Proof. induction ls as [|l ls IH]; intros x; cbn; [|rewrite den_merge, IH]; reflexivity. Qed.

(* no item of a overlaps an item of b if their merge is well formed: whichever item comes first
   ends before everything that follows it, the rest of both lists included *)
Lemma merge_WF_disjoint : forall a b, WF (merge a b) -> forall x, den a x && den b x = false.
Proof.
  induction a as [|i a IHa]; [reflexivity|].
  induction b as [|j b IHb]; intros W x; [apply andb_false_r|].
  rewrite merge_cons in W.
  destruct (lo i <=? lo j); pose proof (WF_above _ _ x W) as Hx; rewrite den_merge in Hx; apply WF_tail in W.
  - specialize (IHa _ W x). cbn [den] in *. unfold in_item in *. lia.
  - specialize (IHb W x). cbn [den] in *. unfold in_item in *. lia.
Qed.

Lemma merge_WF_r : forall a b, WF (merge a b) -> WF b.
Proof.
  induction a as [|i a IHa]; [trivial|]. induction b as [|j b IHb]; [intros _; exact I|].
  rewrite merge_cons. destruct (lo i <=? lo j); intros W; [exact (IHa _ (WF_tail _ _ W))|].
  pose proof (IHb (WF_tail _ _ W)) as Wb. split; [apply W|]. split; [|exact Wb].
  destruct b as [|k b]; [exact I|]. apply (WF_above _ _ _ W). rewrite den_merge.
  destruct Wb as (Hk & _). den_lia.
Qed.

Lemma merge_all_WF_disjoint : forall ls, WF (merge_all ls) ->
  ForallOrdPairs (fun a b => forall x, den a x && den b x = false) ls.
Proof.
  induction ls as [|l r IH]; intros W; constructor; [|exact (IH (merge_WF_r _ _ W))].
  apply Forall_forall. intros b Hb x. pose proof (merge_WF_disjoint _ _ W x) as D. rewrite den_merge_all in D.
  destruct (den l x); [|reflexivity]. destruct (den b x) eqn:E; [|reflexivity].
  rewrite <- D. symmetry. apply existsb_exists. eauto.
Qed.
