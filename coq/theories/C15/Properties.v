From Coq Require Import ZArith List Bool Lia ZifyBool.
From EP Require Import C15.Keys C15.KeysProofs C15.Model C15.Proofs.
From EP Require Gen.C15Shape.
Import ListNotations.
Open Scope Z_scope.

Theorem C15_get_put : forall m k k' v, map_get (map_put m k v) k = v /\ (k <> k' -> map_get (map_put m k v) k' = map_get m k').
Proof. intros. rewrite !map_get_put, Z.eqb_refl. split; [reflexivity|]. intros H. apply Z.eqb_neq in H. rewrite H. reflexivity. Qed.
Print Assumptions C15_get_put.

Theorem C15_put_keeps_keys_unique_and_size : forall m k v, wf m ->
  wf (map_put m k v) /\ map_size (map_put m k v) = if map_contains m k then map_size m else map_size m + 1.
Proof.
  intros m k v W. rewrite wf_t, map_contains_t in *. split; [apply twf_tput, W|].
  change (tsize (tput Z.eqb m k v) = if tcontains Z.eqb m k then tsize m else tsize m + 1).
  rewrite (tsize_tput Z Z.eqb Z.eqb_sym zeqb_trans m k v W). destruct (tcontains Z.eqb m k); lia.
Qed.
Print Assumptions C15_put_keeps_keys_unique_and_size.

Theorem C15_remove : forall m ks k,
  (In k ks -> map_contains (map_remove m ks) k = false) /\ (~ In k ks -> map_get (map_remove m ks) k = map_get m k) /\
  (wf m -> wf (map_remove m ks)).
Proof.
  intros m ks k. rewrite <- (existsb_eqb_in ks k). split; [|split].
  - intros H. rewrite map_contains_t, tcontains_lookup, lookup_remove, H. reflexivity.
  - intros H. unfold map_get. rewrite lookup_remove. destruct (existsb _ ks); [contradiction H|]; reflexivity.
  - rewrite map_remove_t, !wf_t. apply twf_tremove.
Qed.
Print Assumptions C15_remove.

(* map:merge duplicate policies, one entry at a time *)
Theorem C15_merge_policies : forall items k v old,
  (lookup items k = None -> forall p, merge_one p items (k, v) = MOk (items ++ [(k, v)])) /\
  (lookup items k = Some old ->
     merge_one UseFirst items (k, v) = MOk items /\ merge_one Reject items (k, v) = MErr /\
     (exists m, merge_one UseLast items (k, v) = MOk m /\ map_get m k = v /\ forall k', k' <> k -> map_get m k' = map_get items k') /\
     (exists m, merge_one Combine items (k, v) = MOk m /\ map_get m k = old ++ v /\ forall k', k' <> k -> map_get m k' = map_get items k')).
Proof.
  intros items k v old. split; intros H.
  - intros p. cbn. rewrite H. reflexivity.
  - cbn [merge_one]. rewrite H. split; [reflexivity|]. split; [reflexivity|]. split.
    + exists (map_put items k v). split; [reflexivity|]. rewrite map_get_put, Z.eqb_refl. split; [reflexivity|].
      intros k' Hk. rewrite map_get_put. destruct (Z.eqb_spec k k'); congruence.
    + eexists. split; [reflexivity|]. unfold map_get. split.
      * rewrite replace_value_lookup, Z.eqb_refl, H. reflexivity.
      * intros k' Hk. rewrite replace_value_lookup. destruct (k =? k') eqn:E; [lia|reflexivity].
Qed.
Print Assumptions C15_merge_policies.

(* arrays: 1-based indexing, FOAY0001 exactly outside 1..size, put/get, insert-before, subarray, reverse *)
Theorem C15_array_laws : forall a i v,
  ((exists x, array_get a i = AVal x) <-> 1 <= i <= Z.of_nat (length a)) /\
  (forall a', array_put a i v = AOk a' -> array_get a' i = AVal v /\ length a' = length a /\ forall j, j <> i -> array_get a' j = array_get a j) /\
  (forall b, array_insert_before a i v = AOk b -> length b = S (length a) /\ array_get b i = AVal v) /\
  (forall l b, array_subarray a i (Some l) = AOk b ->
     b = firstn (Z.to_nat l) (skipn (Z.to_nat (i - 1)) a) /\ length b = Z.to_nat l /\ 1 <= i /\ 0 <= l /\ i + l <= Z.of_nat (length a) + 1) /\
  match array_reverse a with AOk b => array_reverse b = AOk a | _ => False end.
Proof.
  intros a i v. split; [|split; [|split; [|split]]].
  - unfold array_get. destruct ((i <=? 0) || (Z.of_nat (length a) <? i)) eqn:E.
    + split; [intros (x & H); discriminate|lia].
    + split; [lia|eauto].
  - intros a' H. unfold array_put in H. destruct ((i <=? 0) || (Z.of_nat (length a) <? i)) eqn:E; [discriminate|].
    injection H as <-. unfold array_get. rewrite set_nth_length, E. split; [|split; auto].
    + f_equal. apply set_nth_nth. lia.
    + intros j Hj. destruct ((j <=? 0) || (Z.of_nat (length a) <? j)) eqn:F; auto. f_equal. apply set_nth_other. lia.
  - intros b H. unfold array_insert_before in H.
    destruct ((i <=? 0) || (Z.of_nat (length a) + 1 <? i)) eqn:E; [discriminate|]. injection H as <-.
    assert (Hl : length (firstn (Z.to_nat (i - 1)) a) = Z.to_nat (i - 1)) by (rewrite firstn_length; lia).
    assert (L : length (firstn (Z.to_nat (i - 1)) a ++ v :: skipn (Z.to_nat (i - 1)) a) = S (length a)).
    { rewrite app_length. cbn [length]. rewrite skipn_length. lia. }
    split; [exact L|]. unfold array_get. rewrite L. destruct ((i <=? 0) || (Z.of_nat (S (length a)) <? i)) eqn:F; [lia|].
    rewrite <- Hl at 1. rewrite nth_middle. reflexivity.
  - intros l b H. unfold array_subarray in H.
    destruct ((i <? 1) || (Z.of_nat (length a) + 1 <? i)) eqn:E1; [discriminate|].
    destruct (l <? 0) eqn:E2; [discriminate|]. destruct (Z.of_nat (length a) + 1 <? i + l) eqn:E3; [discriminate|].
    injection H as <-. split; auto. rewrite firstn_length, skipn_length. lia.
  - unfold array_reverse. rewrite rev_involutive. reflexivity.
Qed.
Print Assumptions C15_array_laws.

(* no function modifies its operand: immediate in Gallina (values are immutable); the statement that matters is about the
   Python objects and is checked by operand snapshots in the correspondence (three mutation defects were fixed in /repo) *)

Example C15_nonvacuous :
  wf [(1, [10]); (2, [20; 21])] /\ map_put [(1, [10]); (2, [20])] 1 [7] = [(2, [20]); (1, [7])] /\
  map_merge Combine [[(1, [1; 2])]; [(1, [3])]] = MOk [(1, [1; 2; 3])] /\ array_get [[1]; [2]] 3 = AErr 1 /\
  array_subarray [[1]; [2]; [3]] 2 (Some 2) = AOk [[2]; [3]].
Proof. vm_compute. repeat constructor; cbn; intuition discriminate. Qed.

(* the statements of /repo that C15/Keys.v (same_key) and C15/Model.v (put / remove / contains / merge) mirror are present
   in the source as read on this run (T-data, harness/shape.py -> Gen/C15Shape.v) *)
Theorem C15_source_shape : Gen.C15Shape.shape_ok = true.
Proof. reflexivity. Qed.
Print Assumptions C15_source_shape.
