From Coq Require Import ZArith List Bool Lia.
From EP Require Import C15.Model C15.Keys C15.KeysProofs.
Import ListNotations.
Open Scope Z_scope.

(* C15.Model is C15.Keys.TMap at K := Z, eqk := Z.eqb: lookup, map_get, map_put, replace_value and map_size are tlookup,
   tget, tput, treplace and tsize up to conversion, map_contains, map_remove and wf up to the equations below; merge_one
   (policies as an inductive type, where tmerge_one has numbers) is no instance, its laws follow from the lookup equations *)
Lemma zeqb_trans : forall a b c, (a =? b) = true -> (b =? c) = true -> (a =? c) = true.
Proof. lia. Qed.
Lemma existsb_eqb_in : forall ks k, existsb (fun x => x =? k) ks = true <-> In k ks.
Proof.
  intros ks k. rewrite existsb_exists. split.
  - intros (x & H & E). apply Z.eqb_eq in E. subst. exact H.
  - intros H. exists k. split; [exact H|apply Z.eqb_refl].
Qed.

Lemma map_contains_t : forall m k, map_contains m k = tcontains Z.eqb m k.
Proof. induction m as [|[a v] r IH]; intros k; cbn; [|rewrite (Z.eqb_sym k a); f_equal; apply IH]; reflexivity. Qed.
Lemma map_remove_t : forall m ks, map_remove m ks = tremove Z.eqb m ks.
Proof.
  intros. apply filter_ext. intros [a v]. cbn.
  induction ks as [|x r IH]; cbn; [|rewrite IH, negb_orb]; reflexivity.
Qed.
Definition wf (m : xmap) : Prop := NoDup (keys m).
Lemma wf_t : forall m, wf m <-> twf Z.eqb m.
Proof.
  unfold wf. induction m as [|[k v] r IH]; cbn; [split; [auto|constructor]|].
  rewrite NoDup_cons_iff, IH, in_map_iff. apply and_iff_compat_r. split.
  - intros H kv Hin. apply Z.eqb_neq. intros ->. eauto.
  - intros H (kv & E & Hin). apply (Z.eqb_neq k (fst kv)); auto.
Qed.

Lemma lookup_put : forall m k v k', lookup (map_put m k v) k' = if k =? k' then Some v else lookup m k'.
Proof. exact (tlookup_tput Z Z.eqb Z.eqb_sym zeqb_trans). Qed.
Lemma lookup_remove : forall m ks k, lookup (map_remove m ks) k = if existsb (fun x => x =? k) ks then None else lookup m k.
Proof. intros. rewrite map_remove_t. exact (tlookup_tremove Z Z.eqb Z.eqb_refl Z.eqb_sym zeqb_trans m ks k). Qed.
Lemma replace_value_lookup : forall m k f k', lookup (replace_value m k f) k' =
  if k =? k' then option_map f (lookup m k') else lookup m k'.
Proof. exact (tlookup_treplace Z Z.eqb Z.eqb_sym zeqb_trans). Qed.

Lemma map_get_put : forall m k v k', map_get (map_put m k v) k' = if k =? k' then v else map_get m k'.
Proof. exact (tget_tput Z Z.eqb Z.eqb_sym zeqb_trans). Qed.

Lemma set_nth_length : forall a n v, length (set_nth a n v) = length a.
Proof. induction a; intros [|n] v; cbn; auto. Qed.
Lemma set_nth_nth : forall a n v d, (n < length a)%nat -> nth n (set_nth a n v) d = v.
Proof. induction a as [|x r IH]; intros [|n] v d H; cbn in *; try lia; auto. apply IH. lia. Qed.
Lemma set_nth_other : forall a n m v d, n <> m -> nth m (set_nth a n v) d = nth m a d.
Proof. induction a as [|x r IH]; intros [|n] [|m] v d H; cbn; auto; lia. Qed.
