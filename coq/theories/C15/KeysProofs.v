From Coq Require Import ZArith List Bool Lia.
From EP Require Import Common.Lists C15.Keys.
Import ListNotations.
Open Scope Z_scope.

Lemma nval_eq_refl : forall v, nval_eq v v = true.
Proof. intros [n d| | |]; auto. apply Z.eqb_refl. Qed.
Lemma nval_eq_sym : forall a b, nval_eq a b = nval_eq b a.
Proof. intros [n1 d1| | |] [n2 d2| | |]; auto. apply Z.eqb_sym. Qed.
Lemma nval_eq_trans : forall a b c, nval_eq a b = true -> nval_eq b c = true -> nval_eq a c = true.
Proof.
  intros [n1 d1| | |] [n2 d2| | |]; try discriminate; intros [n3 d3| | |] H1; try discriminate; auto.
  intros H2. apply Z.eqb_eq in H1, H2. apply Z.eqb_eq. nia.
Qed.

Lemma spec_refl : forall a, same_key_spec a a = true.
Proof. intros [f s|t v|b|q|h o|f v]; cbn; rewrite ?Z.eqb_refl, ?eqb_reflx; auto using nval_eq_refl. Qed.
Lemma spec_sym : forall a b, same_key_spec a b = same_key_spec b a.
Proof.
  intros [f s|t v|b|q|h o|f v] [f' s'|t' v'|b'|q'|h' o'|f' v']; cbn; auto; try apply Z.eqb_sym; try apply nval_eq_sym.
  - destruct b, b'; reflexivity.
  - rewrite (Z.eqb_sym o o'). destruct h, h'; reflexivity.
  - rewrite (Z.eqb_sym f f'), (Z.eqb_sym v v'). reflexivity.
Qed.
Lemma spec_trans : forall a b c, same_key_spec a b = true -> same_key_spec b c = true -> same_key_spec a c = true.
Proof.
  intros [f s|t v|b|q|h o|f v] [f' s'|t' v'|b'|q'|h' o'|f' v']; try discriminate;
    intros [f2 s2|t2 v2|b2|q2|h2 o2|f2 v2] H1; try discriminate; intros H2.
  (* on the diagonal b agrees with a in every compared component and may be replaced by it *)
  - apply Z.eqb_eq in H1. subst. exact H2.
  - exact (nval_eq_trans _ _ _ H1 H2).
  - apply eqb_prop in H1. subst. exact H2.
  - apply Z.eqb_eq in H1. subst. exact H2.
  - apply andb_true_iff in H1. destruct H1 as (A & B). apply eqb_prop in A. apply Z.eqb_eq in B. subst. exact H2.
  - apply andb_true_iff in H1. destruct H1 as (A & B). apply Z.eqb_eq in A, B. subst. exact H2.
Qed.

(* only xs:double / xs:float carry NaN (wfk), so the code's NaN test finds every NaN key *)
Lemma float_nan_wf : forall t v, wfk (KN t v) = true -> float_nan (KN t v) = match v with NNaN => true | _ => false end.
Proof. intros [] [] H; try discriminate H; reflexivity. Qed.

Lemma old_bool_number_differs : same_key_old_bool (KBool true) (KN TInteger (NFin 1 1)) = true /\
  same_key_spec (KBool true) (KN TInteger (NFin 1 1)) = false.
Proof. split; reflexivity. Qed.

Section TMapLaws.
Variable K : Type.
Variable eqk : K -> K -> bool.
Hypothesis eqk_refl : forall a, eqk a a = true.
Hypothesis eqk_sym : forall a b, eqk a b = eqk b a.
Hypothesis eqk_trans : forall a b c, eqk a b = true -> eqk b c = true -> eqk a c = true.

Lemma eqk_false_l : forall a b c, eqk a b = true -> eqk a c = false -> eqk b c = false.
Proof using eqk_trans.
  intros a b c H1 H2. destruct (eqk b c) eqn:E; auto. rewrite (eqk_trans a b c H1 E) in H2. discriminate.
Qed.
(* a key may stand for a same key on either side of eqk: all that the map laws use of symmetry and transitivity *)
Lemma eqk_cong_l : forall a b c, eqk a b = true -> eqk a c = eqk b c.
Proof.
  intros a b c H. destruct (eqk a c) eqn:E; symmetry.
  - rewrite eqk_sym in H. exact (eqk_trans b a c H E).
  - exact (eqk_false_l a b c H E).
Qed.
Lemma eqk_cong_r : forall a b c, eqk a b = true -> eqk c a = eqk c b.
Proof. intros a b c H. rewrite (eqk_sym c a), (eqk_sym c b). apply eqk_cong_l, H. Qed.

(* each operation is characterised by one equation on tlookup; tget and tcontains are read off tlookup *)
Lemma tcontains_lookup : forall (m : tmap K) k, tcontains eqk m k = match tlookup eqk m k with Some _ => true | None => false end.
Proof. induction m as [|[k0 v0] r IH]; intros k; cbn; auto. destruct (eqk k0 k); auto. apply IH. Qed.
Lemma tlookup_compat : forall (m : tmap K) k k', eqk k k' = true -> tlookup eqk m k = tlookup eqk m k'.
Proof. induction m as [|[k0 v0] r IH]; intros k k' E; cbn; [|rewrite (eqk_cong_r k k' k0 E), (IH k k' E)]; reflexivity. Qed.
Lemma tlookup_app : forall (m1 m2 : tmap K) k,
  tlookup eqk (m1 ++ m2) k = match tlookup eqk m1 k with Some v => Some v | None => tlookup eqk m2 k end.
Proof. induction m1 as [|[k' v] r IH]; intros m2 k; cbn; auto. destruct (eqk k' k); auto. Qed.
(* entries dropped by a test on the key that answers alike on the keys same as k *)
Lemma tlookup_filter : forall (p : K -> bool) (m : tmap K) k, (forall a, eqk a k = true -> p a = p k) ->
  tlookup eqk (filter (fun kv => p (fst kv)) m) k = if p k then tlookup eqk m k else None.
Proof.
  intros p m k Hp. induction m as [|[k0 v0] r IH]; cbn; [destruct (p k); reflexivity|].
  destruct (eqk k0 k) eqn:E.
  - rewrite <- (Hp k0 E) in *. destruct (p k0); cbn; [rewrite E; reflexivity|exact IH].
  - destruct (p k0); cbn; [rewrite E|]; exact IH.
Qed.

Lemma tlookup_tput : forall (m : tmap K) k v k',
  tlookup eqk (tput eqk m k v) k' = if eqk k k' then Some v else tlookup eqk m k'.
Proof.
  intros m k v k'. unfold tput. rewrite tlookup_app, (tlookup_filter (fun a => negb (eqk a k))); cbn.
  - rewrite (eqk_sym k' k). destruct (eqk k k'); [|destruct (tlookup eqk m k')]; reflexivity.
  - intros a E. rewrite (eqk_cong_l a k' k E). reflexivity.
Qed.
Lemma tlookup_tremove : forall (m : tmap K) ks k,
  tlookup eqk (tremove eqk m ks) k = if existsb (fun x => eqk x k) ks then None else tlookup eqk m k.
Proof.
  intros m ks k. unfold tremove.
  assert (H : forall a, eqk a k = true -> existsb (eqk a) ks = existsb (fun x => eqk x k) ks).
  { intros a E. apply existsb_ext. intros x. rewrite (eqk_cong_l a k x E). apply eqk_sym. }
  rewrite (tlookup_filter (fun a => negb (existsb (eqk a) ks))).
  - rewrite (H k (eqk_refl k)). destruct (existsb _ ks); reflexivity.
  - intros a E. rewrite (H a E), (H k (eqk_refl k)). reflexivity.
Qed.
Lemma tlookup_treplace : forall (m : tmap K) k f k',
  tlookup eqk (treplace eqk m k f) k' = if eqk k k' then option_map f (tlookup eqk m k') else tlookup eqk m k'.
Proof.
  induction m as [|[k0 v0] r IH]; intros k f k'; cbn; [destruct (eqk k k'); reflexivity|].
  destruct (eqk k0 k) eqn:E; cbn.
  - rewrite <- (eqk_cong_l k0 k k' E). destruct (eqk k0 k'); reflexivity.
  - destruct (eqk k0 k') eqn:E'; [|apply IH]. rewrite <- (eqk_cong_r k0 k' k E'), eqk_sym, E. reflexivity.
Qed.

Lemma tget_tput : forall (m : tmap K) k v k',
  tget eqk (tput eqk m k v) k' = if eqk k k' then v else tget eqk m k'.
Proof. intros. unfold tget. rewrite tlookup_tput. destruct (eqk k k'); reflexivity. Qed.
Lemma tcontains_tput : forall (m : tmap K) k v k',
  tcontains eqk (tput eqk m k v) k' = if eqk k k' then true else tcontains eqk m k'.
Proof. intros. rewrite !tcontains_lookup, tlookup_tput. destruct (eqk k k'); reflexivity. Qed.
Lemma tget_tremove : forall (m : tmap K) ks k,
  tget eqk (tremove eqk m ks) k = if existsb (fun x => eqk x k) ks then [] else tget eqk m k.
Proof. intros. unfold tget. rewrite tlookup_tremove. destruct (existsb _ ks); reflexivity. Qed.

Lemma twf_filter : forall (m : tmap K) f, twf eqk m -> twf eqk (filter f m).
Proof.
  induction m as [|[k v] r IH]; intros f W; cbn in *; auto. destruct W as (W1 & W2).
  destruct (f (k, v)); auto. split; auto.
  intros kv H. apply filter_In in H. apply W1. tauto.
Qed.
Lemma twf_app_one : forall (m : tmap K) k v, twf eqk m -> tcontains eqk m k = false -> twf eqk (m ++ [(k, v)]).
Proof.
  induction m as [|[k0 v0] r IH]; intros k v W H.
  - split; [intros kv []|exact I].
  - apply orb_false_iff in H. destruct H as (H0 & H1). destruct W as (W1 & W2). split; [|apply IH; auto].
    intros kv Hin. apply in_app_or in Hin. destruct Hin as [Hin|[<-|[]]]; [exact (W1 kv Hin)|exact H0].
Qed.
Lemma twf_tput : forall (m : tmap K) k v, twf eqk m -> twf eqk (tput eqk m k v).
Proof.
  intros m k v W. apply twf_app_one; [apply twf_filter, W|]. clear W.
  induction m as [|[k0 v0] r IH]; cbn; [reflexivity|]. destruct (eqk k0 k) eqn:E; cbn; [|rewrite E]; exact IH.
Qed.
Lemma twf_tremove : forall (m : tmap K) ks, twf eqk m -> twf eqk (tremove eqk m ks).
Proof. intros. apply twf_filter; auto. Qed.

(* on a well-formed map at most one entry is filtered out by a put *)
Lemma filter_len_wf : forall (m : tmap K) k, twf eqk m ->
  (length (filter (fun kv => negb (eqk (fst kv) k)) m) + (if tcontains eqk m k then 1 else 0) = length m)%nat.
Proof.
  induction m as [|[k0 v0] r IH]; intros k W; [reflexivity|]. destruct W as (W1 & W2).
  specialize (IH k W2). unfold tcontains in *. cbn. destruct (eqk k0 k) eqn:E; cbn; [|lia].
  (* the entries after one with the key k have other keys *)
  destruct (existsb _ r) eqn:C; [|lia]. apply existsb_exists in C. destruct C as (kv & Hin & Hk).
  rewrite <- (eqk_cong_r k0 k (fst kv) E), eqk_sym, (W1 kv Hin) in Hk. discriminate.
Qed.
Lemma tsize_tput : forall (m : tmap K) k v, twf eqk m ->
  tsize (tput eqk m k v) = tsize m + (if tcontains eqk m k then 0 else 1).
Proof.
  intros m k v W. unfold tsize, tput. rewrite app_length, <- (filter_len_wf m k W). cbn [length].
  destruct (tcontains eqk m k); lia.
Qed.

Lemma treplace_keys : forall (m : tmap K) k f, map fst (treplace eqk m k f) = map fst m.
Proof. induction m as [|[k0 v0] r IH]; intros k f; cbn; auto. destruct (eqk k0 k); cbn; [reflexivity|rewrite IH; reflexivity]. Qed.
Lemma twf_keys : forall (m m' : tmap K), map fst m = map fst m' -> twf eqk m -> twf eqk m'.
Proof.
  induction m as [|[k v] r IH]; intros [|[k' v'] r'] E W; try discriminate; auto.
  injection E as -> E. destruct W as (W1 & W2). split; [|apply (IH r' E W2)].
  intros kv Hin. apply (in_map fst) in Hin. rewrite <- E in Hin. apply in_map_iff in Hin.
  destruct Hin as (kv0 & Hf & Hin0). rewrite <- Hf. apply W1. exact Hin0.
Qed.
Lemma tmerge_one_wf : forall p (m m' : tmap K) kv, twf eqk m -> tmerge_one eqk p m kv = Some m' -> twf eqk m'.
Proof.
  intros p m m' [k v] W H. unfold tmerge_one in H. destruct (tlookup eqk m k) eqn:L.
  - destruct (p =? 0); [injection H as <-; exact W|].
    destruct (p =? 1); [injection H as <-; apply (twf_tput m k v W)|].
    destruct (p =? 2); [discriminate|]. injection H as <-.
    apply (twf_keys m); [symmetry; apply treplace_keys|exact W].
  - injection H as <-. apply twf_app_one; [exact W|]. rewrite tcontains_lookup, L. reflexivity.
Qed.
Lemma tmerge_fold_wf : forall p l (m m' : tmap K), twf eqk m -> tmerge_fold eqk p m l = Some m' -> twf eqk m'.
Proof.
  induction l as [|kv r IH]; intros m m' W H; cbn in H; [injection H as <-; exact W|].
  destruct (tmerge_one eqk p m kv) eqn:E; [|discriminate]. apply (IH t m'); auto. apply (tmerge_one_wf p m t kv W E).
Qed.
Lemma tmerge_wf : forall p ms (m : tmap K), tmerge eqk p ms = Some m -> twf eqk m.
Proof. intros p ms m H. apply (tmerge_fold_wf p (concat ms) [] m); [exact I|exact H]. Qed.

Lemma tmerge_one_spec : forall p (m : tmap K) k v k',
  match tlookup eqk m k with
  | None => exists m', tmerge_one eqk p m (k, v) = Some m' /\ tget eqk m' k' = if eqk k k' then v else tget eqk m k'
  | Some old =>
      if p =? 0 then tmerge_one eqk p m (k, v) = Some m
      else if p =? 1 then exists m', tmerge_one eqk p m (k, v) = Some m' /\ tget eqk m' k' = if eqk k k' then v else tget eqk m k'
      else if p =? 2 then tmerge_one eqk p m (k, v) = None
      else exists m', tmerge_one eqk p m (k, v) = Some m' /\ tget eqk m' k' = if eqk k k' then old ++ v else tget eqk m k'
  end.
Proof.
  intros p m k v k'. unfold tmerge_one. destruct (tlookup eqk m k) eqn:L.
  - destruct (p =? 0); [reflexivity|]. destruct (p =? 1); [eexists; split; [reflexivity|apply tget_tput]|].
    destruct (p =? 2); [reflexivity|]. eexists. split; [reflexivity|]. unfold tget. rewrite tlookup_treplace.
    destruct (eqk k k') eqn:E; [rewrite <- (tlookup_compat m k k' E), L|]; reflexivity.
  - eexists. split; [reflexivity|]. unfold tget. rewrite tlookup_app. cbn.
    destruct (eqk k k') eqn:E; [rewrite <- (tlookup_compat m k k' E), L|destruct (tlookup eqk m k')]; reflexivity.
Qed.
End TMapLaws.
