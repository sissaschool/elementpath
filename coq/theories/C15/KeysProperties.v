From Coq Require Import ZArith List Bool.
From EP Require Import C15.Keys C15.KeysProofs.
Import ListNotations.
Open Scope Z_scope.

(* key identity: op:same-key is an equivalence relation on typed atomic keys (numeric keys across types compared
   exactly, NaN the same key as NaN, strings / anyURI / untypedAtomic by content, everything else within its type) *)
Theorem C15_same_key_equivalence : forall a b c,
  same_key_spec a a = true /\ same_key_spec a b = same_key_spec b a /\
  (same_key_spec a b = true -> same_key_spec b c = true -> same_key_spec a c = true).
Proof. intros a b c. split; [apply spec_refl|]. split; [apply spec_sym|apply spec_trans]. Qed.
Print Assumptions C15_same_key_equivalence.
(* compare.same_key as written decides it on all well-formed keys (after the repair of C15-key-boolean-integer) *)
Theorem C15_same_key_code : forall a b, wfk a = true -> wfk b = true ->
  same_key_impl a b = same_key_spec a b.
Proof.
  intros a b Wa Wb. unfold same_key_impl.
  destruct a as [f s|t v|b1|q|h o|f v], b as [f' s'|t' v'|b2|q'|h' o'|f' v'];
    rewrite ?(float_nan_wf _ _ Wa), ?(float_nan_wf _ _ Wb); cbn; auto.
  (* a number against a boolean, QName, binary or other key: false on either branch of the NaN test *)
  all: try (destruct v; reflexivity).
  - destruct v, v'; reflexivity.
  - destruct b1, b2; reflexivity.
  - destruct (eqb h h'); reflexivity.
Qed.
Print Assumptions C15_same_key_code.
(* before the repair Python's True == 1 made true() and 1 the same key *)
Theorem C15_same_key_old_boolean_number_refuted : exists a b, wfk a = true /\ wfk b = true /\ same_key_old_bool a b <> same_key_spec a b.
Proof. exists (KBool true), (KN TInteger (NFin 1 1)). repeat split; discriminate. Qed.
Print Assumptions C15_same_key_old_boolean_number_refuted.
(* before the repair hexBinary and base64Binary keys with the same octets were the same key *)
Theorem C15_same_key_old_binary_refuted : exists a b, same_key_old_bin a b <> same_key_spec a b.
Proof. exists (KBin true 10), (KBin false 10). discriminate. Qed.
Print Assumptions C15_same_key_old_binary_refuted.

(* the finite-map laws over typed keys, for maps built by put / remove with the same-key relation: get after put,
   contains after put, other keys unchanged, size arithmetic, remove, and no two entries with the same key *)
Theorem C15_typed_map_laws : forall (m : tmap key) k v k' ks,
  tget same_key_spec (tput same_key_spec m k v) k' = (if same_key_spec k k' then v else tget same_key_spec m k') /\
  tcontains same_key_spec (tput same_key_spec m k v) k' = (if same_key_spec k k' then true else tcontains same_key_spec m k') /\
  tget same_key_spec (tremove same_key_spec m ks) k' =
    (if existsb (fun x => same_key_spec x k') ks then [] else tget same_key_spec m k') /\
  (twf same_key_spec m ->
   twf same_key_spec (tput same_key_spec m k v) /\ twf same_key_spec (tremove same_key_spec m ks) /\
   tsize (tput same_key_spec m k v) = tsize m + (if tcontains same_key_spec m k then 0 else 1)).
Proof.
  intros m k v k' ks.
  split; [exact (tget_tput key same_key_spec spec_sym spec_trans m k v k')|].
  split; [exact (tcontains_tput key same_key_spec spec_sym spec_trans m k v k')|].
  split; [exact (tget_tremove key same_key_spec spec_refl spec_sym spec_trans m ks k')|].
  intros W. split; [exact (twf_tput key same_key_spec m k v W)|].
  split; [exact (twf_tremove key same_key_spec m ks W)|].
  exact (tsize_tput key same_key_spec spec_sym spec_trans m k v W).
Qed.
Print Assumptions C15_typed_map_laws.
(* map:merge over typed keys: the result never holds two entries with the same key, and each entry of an operand is
   merged under the duplicates policy (0 use-first | 1 use-last | 2 reject = FOJS0003 | 3 combine = concatenation) *)
Theorem C15_typed_merge : forall p ms (m : tmap key) k v k',
  (tmerge same_key_spec p ms = Some m -> twf same_key_spec m) /\
  (twf same_key_spec m ->
   match tlookup same_key_spec m k with
   | None => exists m', tmerge_one same_key_spec p m (k, v) = Some m' /\
                        tget same_key_spec m' k' = if same_key_spec k k' then v else tget same_key_spec m k'
   | Some old =>
       if p =? 0 then tmerge_one same_key_spec p m (k, v) = Some m
       else if p =? 1 then exists m', tmerge_one same_key_spec p m (k, v) = Some m' /\
                                      tget same_key_spec m' k' = if same_key_spec k k' then v else tget same_key_spec m k'
       else if p =? 2 then tmerge_one same_key_spec p m (k, v) = None
       else exists m', tmerge_one same_key_spec p m (k, v) = Some m' /\
                       tget same_key_spec m' k' = if same_key_spec k k' then old ++ v else tget same_key_spec m k'
   end).
Proof.
  intros p ms m k v k'. split.
  - exact (tmerge_wf key same_key_spec p ms m).
  - intros _. exact (tmerge_one_spec key same_key_spec spec_sym spec_trans p m k v k').
Qed.
Print Assumptions C15_typed_merge.
Example C15_typed_nonvacuous :
  let m := tput same_key_spec (tput same_key_spec [] (KN TInteger (NFin 1 1)) [7]) (KS FUntyped 1) [8] in
  twf same_key_spec m /\ tget same_key_spec (tput same_key_spec m (KN TDouble (NFin 2 2)) [9]) (KN TDecimal (NFin 10 10)) = [9] /\
  tsize (tput same_key_spec m (KN TDouble (NFin 2 2)) [9]) = 2 /\ same_key_spec (KN TDouble NNaN) (KN TFloat NNaN) = true.
Proof. repeat split; intros kv H; repeat (destruct H as [<-|H]; [reflexivity|]); destruct H. Qed.

