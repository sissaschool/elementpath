(* C20 property theorems: the typing walk computes the declarative typing *)
From Coq Require Import List.
From EP Require Import C20.Model C20.Proofs.
From EP Require Gen.C20Shape.
Import ListNotations.

(* the typing walk with its per-content-model cache assigns to every element exactly the type its parent's content
   model declares for its name (and clears undeclared subtrees): every schema whose content models are identified by
   their identity, every instance, every truthful initial cache *)
Theorem C20_apply_schema_typing : forall T e c, coherent (models T) -> cache_ok (models T) c ->
  forall p, parent_ok (models T) p ->
  fst (walk p e c) = spec_elem (option_map snd p) e /\ cache_ok (models T) (snd (walk p e c)).
Proof. intros T e c Co Hc p Hp. apply walk_ok; auto using models_closed. Qed.
Print Assumptions C20_apply_schema_typing.

(* in particular the result does not depend on the cache (nor on the order in which earlier siblings filled it) *)
Theorem C20_cache_irrelevant : forall T e c1 c2 p, coherent (models T) -> cache_ok (models T) c1 -> cache_ok (models T) c2 ->
  parent_ok (models T) p -> fst (walk p e c1) = fst (walk p e c2).
Proof.
  intros T e c1 c2 p Co H1 H2 Hp.
  destruct (C20_apply_schema_typing T e c1 Co H1 p Hp) as (A & _). destruct (C20_apply_schema_typing T e c2 Co H2 p Hp) as (B & _). congruence.
Qed.
Print Assumptions C20_cache_irrelevant.

(* typing never changes the tree that paths are evaluated on: erasing the types gives back the instance *)
Theorem C20_selection_unchanged : forall e p, erase (spec_elem p e) = e.
Proof.
  induction e as [n cs IH] using inst_ind2. intros p.
  assert (E : forall q, map erase (map (spec_elem q) cs) = cs).
  { intros q. induction IH as [|x r Hx _ IHr]; cbn; [|rewrite Hx, IHr]; reflexivity. }
  cbn [spec_elem]. destruct (match p with Some d => lookup n d | None => None end) as [t|]; cbn [erase]; f_equal; [apply E|].
  (* an untyped subtree is typed against no declarations *)
  rewrite (map_ext _ _ (fun x => eq_sym (spec_none x))). apply E.
Qed.
Print Assumptions C20_selection_unchanged.

(* a cache keyed by the *name* of the parent type (all anonymous types share the key) mistypes: two anonymous types
   a, b each declaring a child v, of types 1 and 2: the second v gets the type of the first *)
Theorem C20_cache_by_name_refuted : exists T e,
  coherent (models T) /\ fst (walk_by_name (fun _ => 0) (decls_of (Some T)) e []) <> spec_elem (option_map snd (decls_of (Some T))) e.
Proof.
  (* pseudo content model 0 of the global declarations: r (5) with anonymous children a (10) and b (20), each declaring v (30) *)
  exists (TComplex 0 [(5, TComplex 1 [(10, TComplex 2 [(30, TSimple 1)]); (20, TComplex 3 [(30, TSimple 2)])])]),
         (Elem 5 [Elem 10 [Elem 30 []]; Elem 20 [Elem 30 []]]).
  split.
  - apply nodup_coherent. repeat constructor; cbn; intuition discriminate.
  - vm_compute. discriminate.
Qed.
Print Assumptions C20_cache_by_name_refuted.

Example C20_nonvacuous :
  let T := TComplex 0 [(5, TComplex 1 [(10, TComplex 2 [(30, TSimple 1)]); (20, TComplex 3 [(30, TSimple 2)])])] in
  let e := Elem 5 [Elem 10 [Elem 30 []]; Elem 20 [Elem 30 []; Elem 99 [Elem 30 []]]] in
  coherent (models T) /\ cache_ok (models T) [] /\ parent_ok (models T) (decls_of (Some T)) /\
  fst (walk (decls_of (Some T)) e []) =
    TElem 5 (Some (TComplex 1 [(10, TComplex 2 [(30, TSimple 1)]); (20, TComplex 3 [(30, TSimple 2)])]))
      [TElem 10 (Some (TComplex 2 [(30, TSimple 1)])) [TElem 30 (Some (TSimple 1)) []];
       TElem 20 (Some (TComplex 3 [(30, TSimple 2)])) [TElem 30 (Some (TSimple 2)) []; TElem 99 None [TElem 30 None []]]].
Proof.
  split; [apply nodup_coherent; repeat constructor; cbn; intuition discriminate|]. split; [intros g n v H; discriminate|].
  split; [cbn; auto|]. vm_compute. reflexivity.
Qed.

(* the statements of /repo that the hand model mirrors are present in the source as read on this run (T-data,
   harness/shape.py -> Gen/C20Shape.v) *)
Theorem C20_source_shape : Gen.C20Shape.shape_ok = true.
Proof. reflexivity. Qed.
Print Assumptions C20_source_shape.
