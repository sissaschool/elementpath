From Coq Require Import List Arith.
From EP Require Import C20.Model.
Import ListNotations.

Lemma inst_ind2 : forall (P : inst -> Prop), (forall n cs, Forall P cs -> P (Elem n cs)) -> forall e, P e.
Proof.
  intros P H. fix IH 1. intros [n cs]. apply H.
  exact ((fix F (l : list inst) : Forall P l := match l with [] => Forall_nil P | x :: r => Forall_cons x (IH x) (F r) end) cs).
Qed.

(* every type declared in a content model of ms has its own content models in ms *)
Definition closed (ms : list (nat * list (nat * xtype))) : Prop :=
  forall g d, In (g, d) ms -> forall n t, lookup n d = Some t -> incl (models t) ms.

(* a computation threading the cache returns v whatever truthful cache it starts from, and keeps the cache truthful *)
Definition returns {A} (P : cache -> Prop) (w : cache -> A * cache) (v : A) : Prop :=
  forall c, P c -> fst (w c) = v /\ P (snd (w c)).

Lemma walk_list_returns : forall P (w : inst -> cache -> typed * cache) f cs,
  Forall (fun x => returns P (w x) (f x)) cs -> returns P (walk_list (map w cs)) (map f cs).
Proof.
  intros P w f cs H. induction H as [|x r Hx _ IH]; intros c Hc; cbn [walk_list map]; [auto|].
  destruct (Hx c Hc) as (X1 & X2). destruct (w x c) as [tx c']. destruct (IH c' X2) as (R1 & R2).
  destruct (walk_list (map w r) c') as [tr c'']. cbn [fst snd] in *. subst. auto.
Qed.

Lemma find_ok : forall ms g d n, coherent ms -> In (g, d) ms ->
  returns (cache_ok ms) (fun c => find (fun g => g) c g d n) (lookup n d).
Proof.
  intros ms g d n Co Hin c Hc. unfold find. destruct (cget g n c) as [v|] eqn:E.
  - split; [|exact Hc]. destruct (Hc g n v E) as (d' & Hd' & L & _). rewrite (Co g d d' Hin Hd'). symmetry. exact L.
  - destruct (lookup n d) as [t|] eqn:L; cbn; split; auto.
    intros g0 n0 v0 H. cbn [cget] in H.
    destruct (Nat.eqb_spec g g0) as [<-|]; [destruct (Nat.eqb_spec n n0) as [<-|]|]; try exact (Hc _ _ _ H).
    injection H as <-. exists d. repeat split; auto. discriminate.
Qed.

Lemma spec_none : forall e, spec_elem None e = cleared e.
Proof. intros [n cs]. reflexivity. Qed.

Definition parent_ok (ms : list (nat * list (nat * xtype))) (p : option (nat * list (nat * xtype))) : Prop :=
  match p with Some (g, d) => In (g, d) ms | None => True end.

Lemma walk_ok : forall ms, coherent ms -> closed ms -> forall e p, parent_ok ms p ->
  returns (cache_ok ms) (walk p e) (spec_elem (option_map snd p) e).
Proof.
  intros ms Co Cl. induction e as [n cs IH] using inst_ind2. intros [[g d]|] Hp c Hc; [|auto].
  unfold walk in *. cbn [walk_elem option_map snd spec_elem].
  destruct (find_ok ms g d n Co Hp c Hc) as (F1 & F2). destruct (find _ c g d n) as [ty c1]. cbn [fst snd] in F1, F2. subst ty.
  destruct (lookup n d) as [t|] eqn:L; [|auto].
  assert (Hpd : parent_ok ms (decls_of (Some t))).
  { destruct t as [k|g' d']; cbn; auto. apply (Cl g d Hp n _ L). left. reflexivity. }
  replace (match t with TComplex _ d0 => Some d0 | TSimple _ => None end) with (option_map snd (decls_of (Some t)))
    by (destruct t; reflexivity).
  eapply Forall_impl in IH; [|intros x Hx; exact (Hx _ Hpd)].
  destruct (walk_list_returns _ _ _ cs IH c1 F2) as (C1 & C2).
  destruct (walk_list _ c1) as [tcs c2]. cbn [fst snd] in *. subst tcs. auto.
Qed.

Lemma xtype_ind2 : forall (P : xtype -> Prop), (forall k, P (TSimple k)) ->
  (forall g d, Forall (fun p : nat * xtype => P (snd p)) d -> P (TComplex g d)) -> forall t, P t.
Proof.
  intros P H1 H2. fix IH 1. intros [k|g d]; [apply H1|]. apply H2.
  exact ((fix F (l : list (nat * xtype)) : Forall (fun p => P (snd p)) l :=
            match l with [] => Forall_nil _ | x :: r => Forall_cons x (IH (snd x)) (F r) end) d).
Qed.
Lemma lookup_in : forall n d t, lookup n d = Some t -> exists m, In (m, t) d.
Proof.
  induction d as [|[m u] r IH]; intros t H; cbn in H; [discriminate|].
  destruct (Nat.eqb m n); [injection H as ->; exists m; left; reflexivity|]. destruct (IH t H) as (m' & Hm). exists m'. right. exact Hm.
Qed.
Lemma models_closed : forall T, closed (models T).
Proof.
  induction T as [k|g0 d0 IH] using xtype_ind2; intros g d Hin n t L; [contradiction|].
  destruct Hin as [E|Hin].
  - injection E as <- <-. destruct (lookup_in n d0 t L) as (m & Hm). intros x Hx. right.
    apply in_flat_map. exists (m, t). split; [exact Hm|exact Hx].
  - apply in_flat_map in Hin. destruct Hin as (p & Hp & Hin). rewrite Forall_forall in IH.
    intros x Hx. right. apply in_flat_map. exists p. split; [exact Hp|]. exact (IH p Hp g d Hin n t L x Hx).
Qed.

(* distinct gids: nothing to identify *)
Lemma nodup_coherent : forall ms, NoDup (map fst ms) -> coherent ms.
Proof.
  intros ms H g d1 d2. induction ms as [|[g' d'] r IH]; cbn; [tauto|]. inversion H as [|? ? N H']; subst.
  assert (Hr : forall d, In (g, d) r -> g' <> g) by (intros d Hd <-; exact (N (in_map fst _ _ Hd))).
  intros [E1|H1] [E2|H2].
  - congruence.
  - destruct (Hr d2 H2). congruence.
  - destruct (Hr d1 H1). congruence.
  - exact (IH H' H1 H2).
Qed.
