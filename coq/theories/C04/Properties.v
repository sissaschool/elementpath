(* C04: the Pratt loop against the EBNF, for the binding-power tables probed from the four parsers
   (Gen/C04Tables.v).  The general theorems are those of Common/Pratt.v; what is proved here is that each
   table passes their boolean checker, by evaluation, or fails it (XPath 1.0). *)
From Coq Require Import List.
From EP Require Import Common.Pratt C04.Spec Gen.C04Tables C04.Model.

(* the generic statement: the Pratt loop re-parses every tree in the image shape of expression(b) *)
Theorem C04_pratt_correct : forall (op : Type) lbp rbpL nudR conflict (t : tree op) b rest fuel,
  img op lbp rbpL nudR conflict b t -> edge op lbp rbpL nudR t rest -> halts op lbp b rest ->
  fuel >= 2 * size op t + 1 ->
  expr op lbp rbpL nudR conflict fuel b (lin op t ++ rest) = Ok (t, rest).
Proof. exact pratt_correct. Qed.
Print Assumptions C04_pratt_correct.

(* XPath 2.0 / 3.0 / 3.1: every tree the EBNF derives (precedence levels, left- / non-associativity, prefix
   operators, parentheses) is what the parser returns for its token sequence; the table is the one probed from
   the loaded parser on this run *)
Theorem C04_grouping_v20 : forall t, canon20 0 t -> parse20 (lin op20 t) = Some t.
Proof. apply (grouping op20 _ _ _ _ _ _ _ all_20 all_20_complete). vm_compute. reflexivity. Qed.
Print Assumptions C04_grouping_v20.
Theorem C04_grouping_v30 : forall t, canon30 0 t -> parse30 (lin op30 t) = Some t.
Proof. apply (grouping op30 _ _ _ _ _ _ _ all_30 all_30_complete). vm_compute. reflexivity. Qed.
Print Assumptions C04_grouping_v30.
Theorem C04_grouping_v31 : forall t, canon31 0 t -> parse31 (lin op31 t) = Some t.
Proof. apply (grouping op31 _ _ _ _ _ _ _ all_31 all_31_complete). vm_compute. reflexivity. Qed.
Print Assumptions C04_grouping_v31.

(* FULL STATEMENT for XPath 1.0: forall t, canon10 0 t -> parse10 (lin op10 t) = Some t.
   False of the pinned code: the 1.0 grammar makes = != and < <= > >= two left-associative levels, the parser uses
   the 2.0 rules (known finding C04-xpath1-comparison-chains; the unary minus below '|' of the 1.0 grammar is repaired). *)
Theorem C04_table_v10_refuted : ok10 = false.
Proof. vm_compute. reflexivity. Qed.
Print Assumptions C04_table_v10_refuted.
Theorem C04_grouping_v10_refuted : exists t, canon10 0 t /\ parse10 (lin op10 t) <> Some t.
Proof.
  (* (1 < 2) < 3 : valid in the XPath 1.0 grammar (RelationalExpr is left recursive), rejected by the parser *)
  exists (Bin op10 O_lt__10 (Bin op10 O_lt__10 (Atom op10 1) (Atom op10 2)) (Atom op10 3)).
  split; [cbn; repeat split; auto with arith|vm_compute; discriminate].
Qed.
Print Assumptions C04_grouping_v10_refuted.

(* non-associativity is enforced: every operator of a non-associative level rejects, as its left operand, every
   operator of that level (for comparisons: all fifteen general / value / node comparison operators) - decided on the
   conflict tables regenerated from the led methods of /repo *)
Theorem C04_nonassoc_enforced : complete20 = true /\ complete30 = true /\ complete31 = true.
Proof. vm_compute. repeat split; reflexivity. Qed.
Print Assumptions C04_nonassoc_enforced.

Example C04_nonvacuous :
  canon31 0 (Bin op31 O_or_31 (Atom op31 1)
              (Bin op31 O_plus_31 (Pre op31 O_minus_31 (Bin op31 O_bang_31 (Atom op31 2) (Atom op31 3)))
                                  (Bin op31 O_times_31 (Paren op31 (Bin op31 O_to_31 (Atom op31 4) (Atom op31 5))) (Atom op31 6)))).
Proof. repeat split; try discriminate; repeat constructor. Qed.
