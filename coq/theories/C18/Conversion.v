(* C18 - the function conversion rules (XPath 3.1 section 3.1.5.2) for a parameter of an atomic type, as a total function on
   argument items; the oracle of the conversion sweep of the harness (section 4c): a call of a built-in function is the function
   applied to the converted arguments, hence f(node) = f(untyped string value) and f(untyped s) = f(T(s)).
   Types are numbered; the casting function of untypedAtomic and the subtype relation are parameters of the section (C10 and the
   issubclass matrix of C18/Model.v). The laws are immediate from the definitions and kept beside them. *)
From Coq Require Import ZArith List.
Import ListNotations.

Section Conversion.
Variable ty : Type.
Variable ty_eqb : ty -> ty -> bool.
Variable subtype : ty -> ty -> bool.             (* derives-from, reflexive *)
Variable cast_untyped : ty -> Z -> option Z.     (* the cast of an untypedAtomic with content s to a type: the value or FORG0001 *)
Variable t_numeric t_double t_float t_decimal t_string t_anyURI : ty.

Inductive atom := Untyped (s : Z) | Typed (t : ty) (v : Z).
(* an argument item: an atomic value or a node with its typed value (None: no schema type, the typed value is the untypedAtomic
   string value) *)
Inductive item := IAtom (a : atom) | INode (string_value : Z) (typed : option (list atom)).
Inductive result := Ok (l : list atom) | Err (code : nat).   (* 1 FORG0001, 4 XPTY0004 *)

(* 1. atomization *)
Definition atomize (i : item) : list atom :=
  match i with
  | IAtom a => [a]
  | INode sv None => [Untyped sv]
  | INode _ (Some l) => l
  end.
(* 2. an untypedAtomic item is cast to the expected type, to xs:double when the expected type is xs:numeric *)
Definition target (expected : ty) : ty := if ty_eqb expected t_numeric then t_double else expected.
(* 3. numeric and URI promotion *)
Definition promotable (t expected : ty) : bool :=
  (subtype t t_decimal && (ty_eqb expected t_float || ty_eqb expected t_double)) ||
  (subtype t t_float && ty_eqb expected t_double) || (subtype t t_anyURI && ty_eqb expected t_string).
Definition convert_atom (expected : ty) (a : atom) : result :=
  match a with
  | Untyped s => match cast_untyped (target expected) s with Some v => Ok [Typed (target expected) v] | None => Err 1 end
  | Typed t v => if subtype t expected then Ok [Typed t v]
                 else if promotable t expected then Ok [Typed expected v]
                 else Err 4
  end.
Fixpoint convert_atoms (expected : ty) (l : list atom) : result :=
  match l with
  | [] => Ok []
  | a :: r => match convert_atom expected a with
              | Err c => Err c
              | Ok x => match convert_atoms expected r with Err c => Err c | Ok y => Ok (x ++ y) end
              end
  end.
Definition convert (expected : ty) (i : item) : result := convert_atoms expected (atomize i).
(* a built-in function with one atomic parameter: its body applied to the converted argument *)
Definition call (expected : ty) (body : list atom -> result) (i : item) : result :=
  match convert expected i with Ok l => body l | Err c => Err c end.

Lemma atomization_equivalence : forall expected sv, convert expected (INode sv None) = convert expected (IAtom (Untyped sv)).
Proof. reflexivity. Qed.
Lemma typed_node_equivalence : forall expected body sv l, call expected body (INode sv (Some l)) = match convert_atoms expected l with Ok x => body x | Err c => Err c end.
Proof. reflexivity. Qed.
Lemma untyped_is_cast : forall expected s,
  convert expected (IAtom (Untyped s)) =
  match cast_untyped (target expected) s with Some v => Ok [Typed (target expected) v] | None => Err 1 end.
Proof. intros. cbn. destruct (cast_untyped (target expected) s); reflexivity. Qed.
Hypothesis subtype_refl : forall t, subtype t t = true.
Hypothesis double_is_numeric : subtype t_double t_numeric = true.
Hypothesis ty_eqb_spec : forall a b, ty_eqb a b = true -> a = b.
(* f(untyped s) = f(T(s)): the cast value is accepted unchanged *)
Lemma untyped_promotion : forall expected body s v, cast_untyped (target expected) s = Some v ->
  call expected body (IAtom (Untyped s)) = call expected body (IAtom (Typed (target expected) v)).
Proof.
  intros expected body s v H. unfold call. cbn. rewrite H.
  assert (S : subtype (target expected) expected = true).
  { unfold target. destruct (ty_eqb expected t_numeric) eqn:E; [|apply subtype_refl].
    apply ty_eqb_spec in E. rewrite E. exact double_is_numeric. }
  rewrite S. reflexivity.
Qed.
End Conversion.
