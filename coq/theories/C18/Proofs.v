From Coq Require Import List Bool Arith Lia.
From EP Require Import C18.Model.
Import ListNotations.

(* The hierarchy is a finite relation on the 46 type indexes: what is said of all of them is evaluated. *)
Definition idx : list nat := seq 0 ntypes.
Lemma forallb_idx : forall p, forallb p idx = true -> forall a, a < ntypes -> p a = true.
Proof. intros p H a Ha. apply (proj1 (forallb_forall _ _) H), in_seq. lia. Qed.

Lemma matrix_is_xsd : forallb (fun a => forallb (fun b => Bool.eqb (code_sub a b) (type_sub a b)) idx) idx = true.
Proof. vm_compute. reflexivity. Qed.

(* `if`, not `||`: only the 168 related pairs a, b are followed to a third type, also by the lazy machine of coqchk *)
Lemma type_sub_trans_b :
  forallb (fun a => forallb (fun b => if type_sub a b then forallb (fun c => if type_sub b c then type_sub a c else true) idx
                                      else true) idx) idx = true.
Proof. vm_compute. reflexivity. Qed.
Lemma type_sub_refl : forall a, type_sub a a = true.
Proof. intros a. unfold type_sub. cbn [derives]. rewrite Nat.eqb_refl. reflexivity. Qed.
Lemma type_sub_trans : forall a b c, a < ntypes -> b < ntypes -> c < ntypes ->
  type_sub a b = true -> type_sub b c = true -> type_sub a c = true.
Proof.
  intros a b c Ha Hb Hc H1 H2. pose proof (forallb_idx _ (forallb_idx _ type_sub_trans_b a Ha) b Hb) as X.
  cbv beta in X. rewrite H1 in X. apply (forallb_idx _ X) in Hc. rewrite H2 in Hc. exact Hc.
Qed.

Lemma card_sub : forall o2 o1, occ_sub o2 o1 = true <-> (forall n, card o2 n = true -> card o1 n = true).
Proof.
  intros o2 o1. split.
  - intros H n C. destruct o2, o1; try discriminate; unfold card in *;
      rewrite ?Nat.eqb_eq, ?Nat.leb_le in *; lia.
  - (* a cardinality 0, 1 or 2 tells any two different indicators apart *)
    intros H. pose proof (H 0) as H0. pose proof (H 1) as H1. pose proof (H 2) as H2.
    destruct o2, o1; auto.
Qed.
(* inclusion of cardinality sets is a preorder *)
Lemma occ_sub_refl : forall o, occ_sub o o = true.
Proof. intros o. apply card_sub. auto. Qed.
Lemma occ_sub_trans : forall a b c, occ_sub a b = true -> occ_sub b c = true -> occ_sub a c = true.
Proof. intros a b c. rewrite !card_sub. auto. Qed.

Definition wf_item (i : itype) : Prop := match i with IAny => True | IAtomic t => t < ntypes end.
Definition wf_st (s : stype) : Prop := wf_item (snd s).

(* Sequence types over any preorder on the type indexes; only that much of the hierarchy is used. *)
Section Preorder.
Variable sub : nat -> nat -> bool.
Hypothesis sub_refl : forall a, sub a a = true.
Hypothesis sub_trans : forall a b c, a < ntypes -> b < ntypes -> c < ntypes ->
  sub a b = true -> sub b c = true -> sub a c = true.

Lemma item_sub_refl : forall i, item_sub sub i i = true.
Proof. intros [|t]; cbn [item_sub]; auto. Qed.
Lemma item_sub_trans : forall i j k, wf_item i -> wf_item j -> wf_item k ->
  item_sub sub i j = true -> item_sub sub j k = true -> item_sub sub i k = true.
Proof. intros [|a] [|b] [|c]; auto; try discriminate. apply sub_trans. Qed.

Lemma st_sub_refl : forall s, st_sub sub s s = true.
Proof.
  intros [o i]. unfold st_sub. cbn [fst snd]. rewrite occ_sub_refl, item_sub_refl. destruct o; reflexivity.
Qed.
Lemma st_sub_trans : forall s1 s2 s3, wf_st s1 -> wf_st s2 -> wf_st s3 ->
  st_sub sub s1 s2 = true -> st_sub sub s2 s3 = true -> st_sub sub s1 s3 = true.
Proof.
  intros [o1 i1] [o2 i2] [o3 i3] W1 W2 W3. unfold st_sub in *.
  rewrite !andb_true_iff. intros (O1 & I1) (O2 & I2). split; [exact (occ_sub_trans _ _ _ O1 O2)|].
  destruct o1; auto; destruct o2; try discriminate; apply (item_sub_trans i1 i2 i3); auto.
Qed.
Lemma st_sub_sound : forall v s t, Forall (fun a => a < ntypes) v -> wf_st s -> wf_st t ->
  matches sub v s = true -> st_sub sub s t = true -> matches sub v t = true.
Proof.
  intros v [o1 i1] [o2 i2] Hv W1 W2. unfold matches, st_sub in *.
  rewrite !andb_true_iff, !forallb_forall. rewrite Forall_forall in Hv. intros (C & F) (O & I).
  split; [exact (proj1 (card_sub o1 o2) O _ C)|].
  destruct o1.
  1: { (* empty-sequence(): the value is empty, whatever the item types *) destruct v; [intros _ []|discriminate]. }
  all: intros a Ha; apply (item_sub_trans (IAtomic a) i1 i2); auto; exact (Hv a Ha).
Qed.
End Preorder.

(* the occurrence logic of the code is sound (never accepts a non-subtype) but not complete *)
Lemma occ_restr_impl_sound : forall o1 o2, occ_restr_impl o1 o2 = true -> occ_sub o2 o1 = true.
Proof. intros o1 o2. destruct o1, o2; auto. Qed.
Lemma st_restr_impl_sound : forall sub s1 s2, st_restr_impl sub s1 s2 = true -> st_sub sub s2 s1 = true.
Proof.
  intros sub [o1 i1] [o2 i2]. unfold st_restr_impl, st_sub. rewrite !andb_true_iff.
  intros (O & I). split; [exact (occ_restr_impl_sound o1 o2 O)|exact I].
Qed.
