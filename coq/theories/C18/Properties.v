From Coq Require Import List Bool.
From EP Require Import C18.Model C18.Proofs.
From EP Require Gen.C18Shape.
Import ListNotations.

(* the atomic type hierarchy the code uses (issubclass between the registered classes, after the name-equality test)
   is the derivation hierarchy of XSD part 2 / XDM, for all 46 x 46 pairs of built-in atomic types *)
Theorem C18_atomic_hierarchy : forall a b, a < ntypes -> b < ntypes -> code_sub a b = type_sub a b.
Proof. intros a b Ha Hb. apply eqb_prop, (forallb_idx _ (forallb_idx _ matrix_is_xsd a Ha) b Hb). Qed.
Print Assumptions C18_atomic_hierarchy.

(* occurrence indicators denote cardinalities; the subtype relation on them is inclusion of the cardinality sets *)
Theorem C18_occurrence : forall o2 o1, occ_sub o2 o1 = true <-> (forall n, card o2 n = true -> card o1 n = true).
Proof. exact card_sub. Qed.
Print Assumptions C18_occurrence.

(* the subtype relation is reflexive, transitive and sound for matching: all values, all sequence types over the
   built-in atomic types and item() *)
Theorem C18_subtype_sound : forall v s t, Forall (fun a => a < ntypes) v -> wf_st s -> wf_st t ->
  st_sub type_sub s s = true /\
  (forall u, wf_st u -> st_sub type_sub s t = true -> st_sub type_sub t u = true -> st_sub type_sub s u = true) /\
  (matches type_sub v s = true -> st_sub type_sub s t = true -> matches type_sub v t = true).
Proof.
  intros v s t Hv Ws Wt. split; [exact (st_sub_refl _ type_sub_refl s)|]. split.
  - intros u Wu. exact (st_sub_trans _ type_sub_trans s t u Ws Wt Wu).
  - exact (st_sub_sound _ type_sub_trans v s t Hv Ws Wt).
Qed.
Print Assumptions C18_subtype_sound.

(* treat as returns its operand unchanged exactly when instance of holds, else XPDY0050 *)
Theorem C18_treat_as : forall sub v s,
  (instance_of sub v s = true -> treat_as sub v s = Returned v) /\ (instance_of sub v s = false -> treat_as sub v s = XPDY0050).
Proof. intros sub v s. unfold treat_as, instance_of. destruct (matches sub v s); split; intros H; congruence. Qed.
Print Assumptions C18_treat_as.

(* is_sequence_type_restriction (after the fix): sound - whatever it accepts is a subtype. FULL STATEMENT would be
   equality with st_sub; it is not complete: T* does not accept T? and T+ (pinned by tests/test_sequence_types.py). *)
Theorem C18_restriction_sound_partial : forall s1 s2, st_restr_impl type_sub s1 s2 = true -> st_sub type_sub s2 s1 = true.
Proof. exact (st_restr_impl_sound type_sub). Qed.
Print Assumptions C18_restriction_sound_partial.
Theorem C18_restriction_incomplete_refuted : exists s1 s2, st_sub type_sub s2 s1 = true /\ st_restr_impl type_sub s1 s2 = false.
Proof. exists (Star, IAtomic 14), (Opt, IAtomic 18). vm_compute. split; reflexivity. Qed.
Print Assumptions C18_restriction_incomplete_refuted.
(* before the fix it was unsound: xs:int? accepted as a restriction of xs:integer, and () matches the first only *)
Theorem C18_restriction_old_unsound : exists s1 s2 v,
  occ_restr_old (fst s1) (fst s2) = true /\ matches type_sub v s2 = true /\ matches type_sub v s1 = false.
Proof. exists (One, IAtomic 14), (Opt, IAtomic 18), []. vm_compute. repeat split. Qed.
Print Assumptions C18_restriction_old_unsound.

Example C18_nonvacuous :
  matches type_sub [18; 20] (Plus, IAtomic 13) = true /\ matches type_sub [18; 2] (Plus, IAtomic 13) = false /\
  matches type_sub [] (Plus, IAny) = false /\ matches type_sub [] (Zero, IAtomic 0) = true /\
  st_sub type_sub (One, IAtomic 20) (Star, IAtomic 13) = true /\ st_sub type_sub (Opt, IAtomic 20) (One, IAtomic 13) = false.
Proof. vm_compute. repeat split. Qed.

(* the statements of /repo that the hand model mirrors are present in the source as read on this run (T-data,
   harness/shape.py -> Gen/C18Shape.v) *)
Theorem C18_source_shape : Gen.C18Shape.shape_ok = true.
Proof. reflexivity. Qed.
Print Assumptions C18_source_shape.
