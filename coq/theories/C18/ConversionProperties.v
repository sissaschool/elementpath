From Coq Require Import ZArith List.
From EP Require Import C18.Conversion.
Import ListNotations.

(* a node without schema type is converted exactly as the untypedAtomic value of its string value, for every expected type, every
   casting function and every body of the called function *)
Theorem C18_conversion_atomizes_nodes : forall ty ty_eqb subtype cast t_numeric t_double t_float t_decimal t_string t_anyURI expected body sv,
  call ty ty_eqb subtype cast t_numeric t_double t_float t_decimal t_string t_anyURI expected body (INode ty sv None) =
  call ty ty_eqb subtype cast t_numeric t_double t_float t_decimal t_string t_anyURI expected body (IAtom ty (Untyped ty sv)).
Proof. reflexivity. Qed.
Print Assumptions C18_conversion_atomizes_nodes.

(* an untypedAtomic argument is the argument cast to the expected type (xs:double for xs:numeric): the call gives what the call
   with the cast value gives, and FORG0001 when the cast fails *)
Theorem C18_conversion_casts_untyped : forall ty ty_eqb subtype cast t_numeric t_double t_float t_decimal t_string t_anyURI,
  (forall t, subtype t t = true) -> subtype t_double t_numeric = true -> (forall a b, ty_eqb a b = true -> a = b) ->
  forall expected body s,
  let tg := target ty ty_eqb t_numeric t_double expected in
  match cast tg s with
  | Some v => call ty ty_eqb subtype cast t_numeric t_double t_float t_decimal t_string t_anyURI expected body (IAtom ty (Untyped ty s)) =
              call ty ty_eqb subtype cast t_numeric t_double t_float t_decimal t_string t_anyURI expected body (IAtom ty (Typed ty tg v))
  | None => call ty ty_eqb subtype cast t_numeric t_double t_float t_decimal t_string t_anyURI expected body (IAtom ty (Untyped ty s)) = Err ty 1
  end.
Proof.
  intros ty ty_eqb subtype cast t_numeric t_double t_float t_decimal t_string t_anyURI R D E expected body s tg.
  destruct (cast tg s) as [v|] eqn:C.
  - apply untyped_promotion; assumption.
  - unfold call. rewrite untyped_is_cast. fold tg. rewrite C. reflexivity.
Qed.
Print Assumptions C18_conversion_casts_untyped.

(* non-vacuity: types numbered 0 numeric, 1 double, 2 float, 3 decimal, 4 string, 5 anyURI, 6 integer; the hypotheses hold and
   abs(<n>-42</n>) = abs(xs:untypedAtomic('-42')) = abs(xs:double('-42')) *)
Definition sub6 (a b : nat) : bool :=
  Nat.eqb a b || (Nat.eqb b 0 && (Nat.eqb a 1 || Nat.eqb a 2 || Nat.eqb a 3 || Nat.eqb a 6)) || (Nat.eqb a 6 && Nat.eqb b 3).
Example C18_conversion_nonvacuous :
  (forall t, sub6 t t = true) /\ sub6 1 0 = true /\ (forall a b, Nat.eqb a b = true -> a = b) /\
  let cast := fun (t : nat) (s : Z) => if Nat.eqb t 1 then Some s else None in
  let body := fun l => match l with [Typed _ t v] => Ok nat [Typed nat t (Z.abs v)] | _ => Err nat 4 end in
  call nat Nat.eqb sub6 cast 0 1 2 3 4 5 0 body (INode nat (-42) None) = Ok nat [Typed nat 1 42] /\
  call nat Nat.eqb sub6 cast 0 1 2 3 4 5 0 body (IAtom nat (Typed nat 4 7)) = Err nat 4.
Proof.
  split; [intros t; unfold sub6; rewrite Nat.eqb_refl; reflexivity|]. split; [reflexivity|].
  split; [intros a b H; apply Nat.eqb_eq; exact H|]. split; reflexivity.
Qed.
